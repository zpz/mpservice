(* Model/ParSpec.v: an accepted history respects both bounds after every event (so "accepted" means what C08 says), a
   refusal names a real excess, and Model/FifoStream.v stays inside the specification. *)
From MpV Require Import Model.ParSpec.
From Coq Require Import Lia.

Definition Bounded (cap conc : nat) (s : st) : Prop := ahead s <= cap + 3 /\ running s <= conc.

Lemma bounded_init cap conc : Bounded cap conc init.
Proof. unfold Bounded, ahead, init; simpl; lia. Qed.

Lemma bounded_step cap conc s e s' :
  Bounded cap conc s -> step cap conc s e = inl s' -> Bounded cap conc s'.
Proof.
  unfold Bounded, step, ahead. intros [H1 H2] Hs.
  (* every accepted event has passed its guard, which is the bound it could break *)
  destruct e;
    [destruct (Nat.ltb_spec (pulled s - handed s) (cap + 3)) | destruct (Nat.ltb_spec (handed s) (pulled s))
    |destruct (Nat.ltb_spec (running s) conc) | destruct (running s) eqn:Hr];
    try discriminate; injection Hs as <-; cbn [pulled handed running]; lia.
Qed.

Lemma bounded_accept cap conc evs : forall s i sf,
  Bounded cap conc s -> accept cap conc s i evs = inl sf ->
  forall k, exists sk, accept cap conc s i (firstn k evs) = inl sk /\ Bounded cap conc sk.
Proof.
  induction evs as [|e r IH]; intros s i sf Hb Ha k.
  - rewrite firstn_nil. simpl. eauto.
  - destruct k as [|k]; [simpl; eauto|].
    simpl in Ha |- *. destruct (step cap conc s e) as [s'|] eqn:Hs; [|discriminate].
    apply (IH s' (S i) sf); [eapply bounded_step; eauto | exact Ha].
Qed.

Theorem accepted_respects_bounds cap conc evs sf :
  accept cap conc init 0 evs = inl sf ->
  forall k, exists sk, accept cap conc init 0 (firstn k evs) = inl sk /\
                       ahead sk <= cap + 3 /\ running sk <= conc.
Proof. exact (bounded_accept cap conc evs init 0 sf (bounded_init cap conc)). Qed.

Theorem refusal_is_an_excess cap conc s e k :
  step cap conc s e = inr k ->
  match k with
  | LookAhead => e = Pull /\ cap + 3 <= ahead s            (* one more pull would make it cap + 4 *)
  | Concurrency => e = Enter /\ conc <= running s          (* one more invocation would make it conc + 1 *)
  | Impossible => (e = Hand /\ pulled s <= handed s) \/ (e = Exit /\ running s = 0)
  end.
Proof.
  unfold step. intros Hs.
  (* the branch taken contradicts Hs or is the refusal named, and its guard is what the case split leaves *)
  destruct e;
    [destruct (Nat.ltb_spec (ahead s) (cap + 3)) | destruct (Nat.ltb_spec (handed s) (pulled s))
    |destruct (Nat.ltb_spec (running s) conc) | destruct (running s) eqn:Hr];
    try discriminate; injection Hs as <-; auto.
Qed.

(* imported only here: FifoStream's step, init, ahead, running would shadow ParSpec's in the statements above *)
From MpV Require Import Lib.Conc Model.FifoStream Proof.FifoProof.
Theorem fifo_model_within_spec : forall (g : FifoStream.cfg) (sched : list FifoStream.label),
  let s := run FifoStream.step g (FifoStream.init g) sched in
  FifoStream.ahead s <= FifoStream.cap g + 3 /\ FifoStream.running s <= FifoStream.conc g.
Proof. intros g sched s. split; [apply fifo_lookahead | apply running_le_conc]. Qed.
