(* fifo_stream / Parmapper never wedge (C05): the pool's counting invariant [Pool], the protocol between feeder and
   consumer at the end of the iteration [Drain], [Alive] (no BaseException: the feeder does not die), what a blocked
   thread waits for, then cases on the consumer's pc. *)
From MpV Require Import Lib.Tac Lib.Conc Lib.ListFacts Model.FifoStream Proof.FifoProof.

Definition is_base (x : src_item) : bool := match x with SRaiseBase _ => true | _ => false end.
Definition no_base (l : list src_item) : Prop := forallb (fun x => negb (is_base x)) l = true.

Definition is_taken (k : nat) (p : ppc) : bool := match p with PTaken i => Nat.eqb k i | _ => false end.
Definition is_run (k : nat) (p : ppc) : bool := match p with PRun i => Nat.eqb k i | _ => false end.

(* where the work item of future k is: in the pool's queue, taken by a worker, being run *)
Definition n_queued (s : state) (k : nat) : nat := count (Nat.eqb k) (workq s).
Definition n_taken (s : state) (k : nat) : nat := count (is_taken k) (pp s).
Definition n_running (s : state) (k : nat) : nat := count (is_run k) (pp s).

Definition pool_ok (s : state) (k : nat) : Prop :=
  n_queued s k + n_taken s k + n_running s k <= 1 /\
  match nth_error (futs s) k with
  | Some FPending => n_queued s k + n_taken s k = 1
  | Some FRunning => n_running s k = 1
  | Some (FFin _) => n_queued s k + n_taken s k + n_running s k = 0
  | Some FCancelled => n_running s k = 0
  | None => n_queued s k + n_taken s k + n_running s k = 0
  end.

Definition Pool (s : state) : Prop := forall k, pool_ok s k.

Lemma pool_init g : Pool (init g).
Proof.
  intros k. unfold pool_ok, n_queued, n_taken, n_running. cbn. rewrite count_nil, !count_repeat_false by reflexivity.
  destruct k; cbn; lia.
Qed.

Lemma nth_error_snoc_lt {A} (l : list A) x i : i < length l -> nth_error (l ++ [x]) i = nth_error l i.
Proof. apply nth_error_app1. Qed.

(* count_upd_nth said of the model's [set_nth], so that [lia] meets the same terms here and in the goal *)
Lemma pool_upd s j v old k :
  nth_error (pp s) j = Some old ->
  count (is_taken k) (set_nth j v (pp s)) + (if is_taken k old then 1 else 0)
  = n_taken s k + (if is_taken k v then 1 else 0) /\
  count (is_run k) (set_nth j v (pp s)) + (if is_run k old then 1 else 0)
  = n_running s k + (if is_run k v then 1 else 0).
Proof. intros H. split; apply count_upd_nth, H. Qed.

(* [Inv] is used only in the feeder's case and only through i_flen: element i is submitted when there are i futures *)
Lemma pool_step g s s' : Inv g s -> Pool s -> trans g s s' -> Pool s'.
Proof.
  intros HI Hpool Ht. destruct Ht.
  - (* feeder *)
    pose proof (i_flen _ _ HI) as Hl. unfold flen_ok in Hl.
    destruct St; try exact Hpool; intros k; specialize (Hpool k); unfold pool_ok, n_queued, n_taken, n_running in *; cbn.
    + (* rejected by the preprocessor: a future that is already failed *)
      destruct (Nat.eq_dec k (length (futs s))) as [->|Hne].
      * rewrite nth_error_snoc_last. rewrite (proj2 (nth_error_None _ _) (le_n _)) in Hpool. lia.
      * rewrite nth_error_snoc_ne by exact Hne. exact Hpool.
    + (* submission: a pending future, its work item queued *)
      rewrite Ef in Hl. destruct Hl as [<- _]. rewrite count_snoc.
      destruct (Nat.eq_dec k (length (futs s))) as [->|Hne].
      * rewrite nth_error_snoc_last, Nat.eqb_refl. rewrite (proj2 (nth_error_None _ _) (le_n _)) in Hpool. lia.
      * rewrite nth_error_snoc_ne by exact Hne. rewrite (proj2 (Nat.eqb_neq _ _) Hne).
        destruct (nth_error (futs s) k) as [[]|]; lia.
  - (* consumer: the work item of a cancelled future stays where it is and will be skipped *)
    destruct St; try exact Hpool.
    intros k. specialize (Hpool k). unfold pool_ok, n_queued, n_taken, n_running in *. cbn.
    destruct (Nat.eq_dec i k) as [<-|Hne].
    + rewrite (nth_error_upd_nth_same _ _ _ _ Eu). rewrite Eu in Hpool. lia.
    + now rewrite nth_error_upd_nth_other.
  - (* worker: pool_upd for its old pc [a] and new pc [b], taken before the cases on the edge so that each case gets the
       two count equations with its own pcs *)
    intros k. pose proof (Hpool k) as Hk. clear Hpool. destruct (pool_upd s j b _ k Ej) as [HT HR].
    unfold pool_ok, n_queued, n_taken, n_running in *. destruct St; cbn in *.
    + rewrite Ew, count_cons in Hk. destruct (k =? i); destruct (nth_error (futs s) k) as [[]|]; lia.
    + (* the taken item had been cancelled *)
      destruct (Nat.eqb_spec k i) as [->|Hne]; [rewrite Eu in *; lia|].
      destruct (nth_error (futs s) k) as [[]|]; lia.
    + destruct (Nat.eqb_spec k i) as [->|Hne].
      * rewrite (nth_error_upd_nth_same _ _ _ _ Eu). rewrite Eu in Hk. lia.
      * rewrite nth_error_upd_nth_other by congruence. destruct (nth_error (futs s) k) as [[]|]; lia.
    + destruct (Nat.eqb_spec k i) as [->|Hne].
      * destruct (nth_error (futs s) i) as [st|] eqn:Ei.
        -- rewrite (nth_error_upd_nth_same _ _ _ _ Ei). destruct st; lia.
        -- (* the index is outside the futures: the table is unchanged *)
           rewrite (upd_nth_none _ _ _ Ei), Ei. lia.
      * rewrite nth_error_upd_nth_other by congruence. destruct (nth_error (futs s) k) as [[]|]; lia.
Qed.

Lemma pool_run g sched : Pool (run step g (init g) sched).
Proof. apply (reach_under g (Inv g)); [apply inv_run | apply pool_step | apply pool_init]. Qed.

(* with no BaseException in the source the feeder does not die *)
Definition Alive (s : state) : Prop := no_base (rest s) /\ forall e, fp s <> FDead e.

Lemma alive_step g s s' : Alive s -> trans g s s' -> Alive s'.
Proof.
  intros [Hrest Hdead] Ht. destruct Ht.
  - (* feeder: it would die on a BaseException, and there is none left *)
    split.
    + destruct St; cbn; try exact Hrest; rewrite Er in Hrest; apply andb_true_iff in Hrest; apply Hrest.
    + destruct St; cbn; try discriminate. rewrite Er in Hrest. discriminate Hrest.
  - (* consumer *)
    split; destruct St; cbn; try assumption; discriminate.
  - (* worker *)
    destruct St; now split.
Qed.

Lemma alive_run g sched : no_base (src g) -> Alive (run step g (init g) sched).
Proof. intros Hb. apply reach; [apply alive_step|split; [exact Hb|discriminate]]. Qed.

(* how many more items the feeder may still put once the stop flag is set *)
Definition rem (f : fpc) : nat :=
  match f with
  | FNext | FChk _ | FPutExc _ | FPutEnd => 1
  | FPre _ | FSubmit _ _ | FPut _ => 2
  | _ => 0
  end.

Definition drain_phase (c : cpc) : bool :=
  match c with CDrainChk _ | CDrainGet _ | CCancel _ _ | CJoin _ => true | _ => false end.

Record Drain (g : cfg) (s : state) : Prop := {
  d_q_idx : forall i, In (Task i) (q s) -> i < length (futs s);
  d_c_idx : forall i, (cp s = CWait i \/ exists o, cp s = CCancel i o) -> i < length (futs s);
  d_nocancel : phase1 (cp s) = true -> forall i, nth_error (futs s) i <> Some FCancelled;
  d_done : fp s = FDone -> phase1 (cp s) = true -> has_end (q s) = true;
  d_drainget : forall o, cp s = CDrainGet o -> q s <> [];
  d_stop : drain_phase (cp s) = true -> to_stop s = true \/ fp s = FDone;
  (* what is in the queue and what the feeder may still put is at most 2, the size of the smallest queue (cap + 1 with
     1 <= cap): this is where fifo_no_deadlock needs 1 <= cap g *)
  d_join : forall o, cp s = CJoin o -> length (q s) + rem (fp s) <= 2
}.

Lemma drain_init g : Drain g (init g).
Proof.
  constructor; cbn; try easy.
  - now intros i [|[]].
  - now intros _ [|].
Qed.

Lemma drain_step g s s' : Inv g s -> Drain g s -> trans g s s' -> Drain g s'.
Proof.
  intros HI [Hqi Hci Hnc Hdone Hdg Hstop Hjoin] Ht. destruct Ht.
  - (* feeder *)
    pose proof (i_flen _ _ HI) as Hl. unfold flen_ok in Hl. constructor.
    + (* d_q_idx: the task that is put has the last future *)
      destruct St; cbn; try exact Hqi; intros i0 Hi; rewrite ?app_length;
        try (apply in_app_or in Hi; destruct Hi as [Hi|[[= <-]|[]]]); try (specialize (Hqi _ Hi)); try lia.
      rewrite Ef in Hl. lia.
    + (* d_c_idx *)
      destruct St; cbn; try exact Hci; intros i0 Hi; rewrite app_length; specialize (Hci _ Hi); lia.
    + (* d_nocancel *)
      destruct St; cbn; try exact Hnc; intros Hc i0 Hi; apply nth_error_snoc_cases in Hi;
        destruct Hi as [[_ Hi]|[_ Hi]]; [exact (Hnc Hc _ Hi)|discriminate Hi|exact (Hnc Hc _ Hi)|discriminate Hi].
    + (* d_done *)
      destruct St; cbn; try discriminate; intros _ _; rewrite has_end_snoc; apply orb_true_r.
    + (* d_drainget *)
      destruct St; cbn; try exact Hdg; intros o _; apply snoc_not_nil.
    + (* d_stop *)
      intros Hd. destruct (Hstop ltac:(destruct St; exact Hd)) as [Ht|Hf]; [left; destruct St; exact Ht|].
      destruct St; congruence.
    + (* d_join: the stop flag is set, so no step from the stop test to a submission; every other step keeps [rem] or
         trades one unit of it for one slot of the queue *)
      intros o Ho. assert (Hc : cp s = CJoin o) by (destruct St; exact Ho).
      specialize (Hjoin o Hc). destruct (Hstop ltac:(now rewrite Hc)) as [Ht|Hf]; [|destruct St; congruence].
      destruct St; cbn; rewrite Ef in Hjoin; cbn in Hjoin; rewrite ?app_length; cbn; try lia; congruence.
  - (* consumer *)
    constructor.
    + (* d_q_idx *)
      destruct St; cbn; rewrite ?upd_nth_length; try exact Hqi; intros i0 Hi; apply Hqi; rewrite Eq; now right.
    + (* d_c_idx: the task taken out was in the queue *)
      destruct St; cbn; rewrite ?upd_nth_length; intros i0 [E|[o0 E]]; try discriminate E;
        injection E as <-; apply Hqi; rewrite Eq; now left.
    + (* d_nocancel *)
      destruct St; cbn; try discriminate; intros _; apply Hnc; now rewrite Ec.
    + (* d_done *)
      destruct St; cbn; try discriminate; rewrite Ec in Hdone; try exact Hdone.
      rewrite Eq in Hdone. exact Hdone.
    + (* d_drainget *)
      destruct St; cbn; try discriminate. intros _ _. exact Eq.
    + (* d_stop *)
      destruct St; cbn; try discriminate; rewrite Ec in Hstop; try exact Hstop; intros _; auto.
      right. apply (i_end _ _ HI). now rewrite Eq.
    + (* d_join: when an end item is taken out, nothing follows it and the feeder is done *)
      assert (Hend : forall it q', q s = it :: q' -> is_end it = true -> length q' + rem (fp s) <= 2).
      { intros it q' Eq Hit. pose proof (i_eok _ _ HI) as Hk. rewrite Eq in Hk. apply eok_tail in Hk.
        rewrite (proj2 Hk Hit), (i_end _ _ HI) by (rewrite Eq; cbn; now rewrite Hit). cbn. lia. }
      destruct St; cbn; try discriminate; intros _ _; try exact (Hend _ _ Eq eq_refl).
      (* C_drained: [rem] is at most 2 *)
      rewrite Eq. destruct (fp s); cbn; lia.
  - (* worker: d_nocancel, it does not cancel *)
    destruct St; constructor; cbn; rewrite ?upd_nth_length; try assumption.
    all: intros Hc i0 Hi; apply nth_error_upd_nth_cases in Hi; destruct Hi as [[_ Hi]|[_ Hi]];
      [discriminate Hi|exact (Hnc Hc _ Hi)].
Qed.

Lemma drain_run g sched : Drain g (run step g (init g) sched).
Proof. apply (reach_under g (Inv g)); [apply inv_run | apply drain_step | apply drain_init]. Qed.

Lemma step_f_none g s :
  step_f g s = None ->
  match fp s with
  | FIdle | FDone | FDead _ => True
  | FPut _ | FPutExc _ | FPutEnd => qfull g s = true
  | _ => False
  end.
Proof. unfold step_f, f_put. destruct (fp s); auto; intros H; break_match_hyp H; try discriminate; auto. Qed.

Lemma step_c_none g s :
  step_c g s = None ->
  match cp s with
  | CGet => q s = []
  | CWait i => forall r, nth_error (futs s) i <> Some (FFin r)
  | CDrainGet _ => q s = []
  | CCancel i _ => nth_error (futs s) i = None
  | CJoin _ => f_finished s = false
  | CDone _ => True
  | _ => False
  end.
Proof.
  unfold step_c, f_finished. destruct (cp s); intros H; break_match_hyp H; try discriminate H; auto; congruence.
Qed.

Definition p_blocked (s : state) (j : nat) : Prop :=
  match nth_error (pp s) j with
  | None => True
  | Some PIdle => workq s = []
  | Some (PTaken i) => nth_error (futs s) i <> Some FPending /\ nth_error (futs s) i <> Some FCancelled
  | Some (PRun _) => False
  end.

Lemma step_p_none g s j : step_p g s j = None -> p_blocked s j.
Proof.
  unfold step_p, p_blocked. intros H. break_match_hyp H; try discriminate H; auto; split; discriminate.
Qed.

Lemma taken_not_blocked s j i : Pool s -> nth_error (pp s) j = Some (PTaken i) -> ~ p_blocked s j.
Proof.
  intros Hpool Hj Hb. unfold p_blocked in Hb. rewrite Hj in Hb. destruct Hb as [H1 H2].
  pose proof (Hpool i) as [Hs Hp]. unfold n_taken in Hs, Hp.
  pose proof (count_pos_in (is_taken i) _ _ (nth_error_In _ _ Hj) (Nat.eqb_refl i)).
  destruct (nth_error (futs s) i) as [[| | |]|]; try congruence; lia.
Qed.

Lemma idle_pool s i :
  Pool s -> pp s <> [] -> (forall j, p_blocked s j) ->
  nth_error (futs s) i <> Some FPending /\ nth_error (futs s) i <> Some FRunning.
Proof.
  intros Hpool Hpp HP. pose proof (Hpool i) as [Hsum Hm]. unfold n_queued, n_taken, n_running in *.
  split; intros Efu; rewrite Efu in Hm.
  - (* pending: its work item is with a worker, which can go on, or in the queue, which worker 0 can take
       unless it is busy *)
    destruct (count (is_taken i) (pp s)) as [|nT] eqn:ET.
    + assert (Hw : workq s <> []) by (intros Hn; rewrite Hn, count_nil in Hm; discriminate Hm).
      destruct (nth_error (pp s) 0) as [p0|] eqn:E0; [|destruct (pp s); [contradiction|discriminate]].
      pose proof (HP 0) as H0. unfold p_blocked in H0. rewrite E0 in H0.
      destruct p0; [contradiction|eapply taken_not_blocked; eauto|contradiction].
    + destruct (count_pos_nth (is_taken i) (pp s) ltac:(lia)) as (j & x & Hj & Hx).
      destruct x as [|i'|]; cbn in Hx; try discriminate. apply Nat.eqb_eq in Hx. subst i'.
      eapply taken_not_blocked; eauto.
  - (* running: its worker can finish *)
    destruct (count_pos_nth (is_run i) (pp s) ltac:(lia)) as (j & x & Hj & Hx).
    destruct x; cbn in Hx; try discriminate.
    specialize (HP j). unfold p_blocked in HP. now rewrite Hj in HP.
Qed.

Lemma fifo_no_deadlock g sched :
  no_base (src g) -> 1 <= cap g -> 1 <= conc g -> deadlocked g (run step g (init g) sched) = false.
Proof.
  intros Hb Hcap Hconc. pose proof (drain_run g sched) as Dd. pose proof (alive_run g sched Hb) as [_ Hdead].
  pose proof (inv_run g sched) as HI.
  set (s := run step g (init g) sched) in *.
  destruct (deadlocked g s) eqn:Ed; [exfalso|reflexivity]. unfold deadlocked in Ed.
  apply andb_true_iff in Ed. destruct Ed as [Hnf Hst]. apply negb_true_iff in Hnf.
  destruct (step_f g s) eqn:Ef; [discriminate|]. destruct (step_c g s) eqn:Ec; [discriminate|].
  pose proof (i_pp _ _ HI) as Hpp.
  assert (HP : forall j, p_blocked s j).
  { intros j. apply (step_p_none g). destruct (Nat.lt_ge_cases j (conc g)) as [Hj|Hj].
    - rewrite forallb_forall in Hst. specialize (Hst j). rewrite in_seq in Hst.
      destruct (step_p g s j); [specialize (Hst ltac:(lia)); discriminate|reflexivity].
    - unfold step_p. now rewrite (proj2 (nth_error_None (pp s) j)) by (rewrite Hpp; exact Hj). }
  pose proof (step_f_none g s Ef) as HF. pose proof (step_c_none g s Ec) as HC. clear Ef Ec Hst.
  destruct (cp s) eqn:Ecp; try contradiction.
  - (* CGet: the feeder can put or is still producing *)
    unfold qfull in HF. rewrite HC in *. cbn [length] in HF.
    destruct (fp s) eqn:Efp; try contradiction; try discriminate HF.
    + apply (i_start _ _ HI) in Efp. congruence.
    + pose proof (d_done _ _ Dd Efp) as H. rewrite Ecp, HC in H. discriminate (H eq_refl).
    + exact (Hdead _ eq_refl).
  - (* CWait i: future i exists, is not cancelled, and the pool is not idle while it is unfinished *)
    assert (Hi : i < length (futs s)) by (apply (d_c_idx _ _ Dd); left; exact Ecp).
    destruct (idle_pool s i (pool_run g sched)) as [Hpend Hrun]; [intros E; rewrite E in Hpp; cbn in Hpp; lia|exact HP|].
    destruct (nth_error (futs s) i) as [[| |r|]|] eqn:Efu; [now apply Hpend|now apply Hrun| | |].
    + exact (HC r eq_refl).
    + refine (d_nocancel _ _ Dd _ i Efu). now rewrite Ecp.
    + apply nth_error_None in Efu. lia.
  - exact (d_drainget _ _ Dd _ Ecp HC).
  - assert (Hi : i < length (futs s)) by (apply (d_c_idx _ _ Dd); right; eauto). apply nth_error_None in HC. lia.
  - (* CJoin: the feeder has room for what it still has to put *)
    pose proof (d_join _ _ Dd _ Ecp) as Hj. unfold qfull in HF. unfold f_finished in HC.
    destruct (fp s) eqn:Efp; try contradiction; try discriminate HC; cbn [rem] in Hj;
      try (apply Nat.leb_le in HF; lia).
    apply (i_start _ _ HI) in Efp. congruence.
  - unfold final in Hnf. rewrite Ecp, (i_closed _ _ HI _ Ecp) in Hnf. discriminate.
Qed.
