(* C10: the source is pulled once per element; the boxes hold, in order, exactly the data elements pulled so far. *)
From MpV Require Import Lib.Tac Lib.ListFacts Lib.Conc Model.Tee.
Open Scope nat_scope.

(* unlike Tee.datas this skips failures: pull goes on with the rest of the source after an SRaise *)
Fixpoint datas_all (l : list src_item) : list Z :=
  match l with
  | [] => []
  | SData x :: r => x :: datas_all r
  | SRaise _ :: r => datas_all r
  end.

Lemma datas_all_app a b : datas_all (a ++ b) = datas_all a ++ datas_all b.
Proof. induction a as [|[x|e] a IH]; cbn; congruence. Qed.

Definition pulled_state (s : state) (x : Z) (r : list src_item) : state :=
  set_boxes (set_rest s r (S (pulled s))) (boxes s ++ [{| bval := x; bnext := None; bn := 0; block := None |}]).

(* a pull takes [done] off the source: one data element, which gets the next box, or nothing that is data *)
Lemma pull_cases s s1 got v exc :
  pull s = (s1, got, v, exc) ->
  exists done r, rest s = done ++ r
    /\ s1 = match got with Some (x, _) => pulled_state s x r | None => set_rest s r (pulled s) end
    /\ match got with
       | Some (x, b) => done = [SData x] /\ b = length (boxes s)
       | None => datas_all done = []
       end.
Proof.
  unfold pull. destruct (rest s) as [|[x|e0] r] eqn:Er; intros [= <- <- _ _].
  - exists [], []. repeat split. rewrite <- Er. now destruct s.
  - exists [SData x], r. auto.
  - exists [SRaise e0], r. auto.
Qed.

Definition InvS (g : cfg) (s : state) : Prop :=
  length (boxes s) = pulled s
  /\ exists consumed, src g = consumed ++ rest s /\ map bval (boxes s) = datas_all consumed.

Lemma invs_init g : InvS g (init g).
Proof. split; [reflexivity|]. now exists []. Qed.

Lemma invs_pull g s s1 got v exc :
  InvS g s -> pull s = (s1, got, v, exc) -> InvS g s1.
Proof.
  intros (HL & consumed & HS & HB) Hp. destruct (pull_cases _ _ _ _ _ Hp) as (done & r & Hr & -> & Hd).
  rewrite Hr, app_assoc in HS.
  destruct got as [[x b]|]; (split; [|exists (consumed ++ done)]); cbn.
  - rewrite app_length. cbn. lia.
  - destruct Hd as [-> _]. now rewrite map_app, datas_all_app, HB.
  - exact HL.
  - now rewrite datas_all_app, Hd, app_nil_r.
Qed.

Lemma invs_frame g s s' :
  pulled s' = pulled s -> rest s' = rest s -> map bval (boxes s') = map bval (boxes s) -> InvS g s -> InvS g s'.
Proof.
  intros H1 H2 H3 HI. unfold InvS. rewrite <- (map_length bval), H1, H2, H3, map_length. exact HI.
Qed.

Lemma invs_step g s l s' e : InvS g s -> step g s l = Some (s', e) -> InvS g s'.
Proof.
  intros HI Hs. destruct l as [f ex]. cbn in Hs. unfold step_f in Hs.
  (* pull s is named before the split, so that InvS of its result (Ep) is at hand in the PA4 / PB4 cases *)
  destruct (pull s) as [[[s1 got] v] exc] eqn:Ep. apply (invs_pull _ _ _ _ _ _ HI) in Ep.
  step_cases Hs.
  (* InvS of [set_fork s1 f k] is InvS of [s1] by conversion: after a pull (PA4, PB4) that is all *)
  all: first [exact Ep | apply (invs_frame g s); [reflexivity|reflexivity| |exact HI]];
       first [reflexivity | cbn; eapply map_upd_nth_same; [eassumption|reflexivity]].
Qed.

Lemma source_pulled_once g sched :
  let s := run step g (init g) sched in
  length (boxes s) = pulled s /\
  exists consumed, src g = consumed ++ rest s /\ map bval (boxes s) = datas_all consumed.
Proof. apply (inv_run step g (InvS g)); [exact (invs_step g) | apply invs_init]. Qed.
