(* C10, bounded window: the source is never pulled more than buffer_size + 2 elements beyond what any fork has received. *)
From MpV Require Import Lib.Tac Lib.ListFacts Lib.Conc Model.Tee Proof.TeeProof Proof.TeePrefix.
Open Scope nat_scope.

Lemma count_lt {A} (f : A -> bool) l j x : nth_error l j = Some x -> f x = false -> count f l < length l.
Proof.
  revert j; induction l as [|h t IH]; intros [|j]; cbn [nth_error length]; try discriminate; rewrite count_cons.
  - intros [= ->] ->. pose proof (count_le_length f t). lia.
  - intros H Hx. specialize (IH _ H Hx). destruct (f h); lia.
Qed.

Lemma count_below {A} (f : A -> bool) l m :
  (forall i x, nth_error l i = Some x -> f x = true -> i < m) -> count f l <= m.
Proof.
  revert m; induction l as [|h t IH]; intros m H; [apply Nat.le_0_l|]. rewrite count_cons.
  assert (Ht : count f t <= pred m).
  { apply IH. intros i x Hi Hx. specialize (H (S i) x Hi Hx). lia. }
  destruct (f h) eqn:E; [|lia]. specialize (H 0 h eq_refl E). lia.
Qed.

Lemma count_unique {A} (f : A -> bool) l :
  (forall i j x y, nth_error l i = Some x -> nth_error l j = Some y -> f x = true -> f y = true -> i = j) ->
  count f l <= 1.
Proof.
  induction l as [|h t IH]; intros H; [apply Nat.le_0_l|]. rewrite count_cons. destruct (f h) eqn:E.
  - destruct (Nat.eq_0_gt_0_cases (count f t)) as [->|Hp]; [reflexivity|].
    destruct (count_pos_nth f t Hp) as (j & y & Hj & Hy). discriminate (H 0 (S j) h y eq_refl Hj E Hy).
  - apply IH. intros i j x y Hi Hj Hx Hy. specialize (H (S i) (S j) x y Hi Hj Hx Hy). lia.
Qed.

Definition cnt {A} (f : A -> bool) (l : list A) : nat := length (filter f l).

Lemma cnt_ext {A} (f g : A -> bool) l : (forall x, In x l -> f x = g x) -> cnt f l = cnt g l.
Proof. intros H. unfold cnt. f_equal. apply filter_ext_in, H. Qed.

(* has done `box.n += 1` on the box it stands on *)
Definition after_inc (p : fpc) : bool := match p with PC3 | PC4 | PC5 | PR _ => true | _ => false end.
(* the number of boxes whose n the fork has incremented *)
Definition passed (k : fork) : nat := length (recv k) + Nat.b2n (after_inc (pc k)).
Definition passedb (i : nat) (k : fork) : bool := i <? passed k.
(* holds a box it has pulled and not yet put into the window queue *)
Definition is_pend (k : fork) : bool := match pc k with PA5 _ | PB5 _ | PB6 _ => true | _ => false end.
Definition is_pc3 (k : fork) : bool := match pc k with PC3 => true | _ => false end.
Definition bns (s : state) : list nat := map bn (boxes s).
Definition box_full (g : cfg) (n : nat) : bool := n =? nforks g.

(* box.n counts the forks that have passed the box (beyond the last box: nobody). The window queue holds one entry
   for every box pulled, except the box its puller has not queued yet and the full boxes (n = number of forks) whose
   entry has been taken out: the fork that fills a box takes one entry out, at PC3. *)
Record Window (g : cfg) (s : state) : Prop := {
  w_n : length (forks s) = nforks g;
  w_cnt : forall i, count (passedb i) (forks s) = nth i (bns s) 0;
  w_bal : length (bns s) + count is_pc3 (forks s)
          = count (box_full g) (bns s) + length (buffer s) + count is_pend (forks s);
  w_buf : length (buffer s) <= bufsize g
}.

Lemma window_init g : Window g (init g).
Proof.
  constructor; unfold init; cbn.
  - apply repeat_length.
  - intros i. rewrite count_repeat_false; [now destruct i|reflexivity].
  - now rewrite !count_repeat_false.
  - apply Nat.le_0_l.
Qed.

(* a step replaces one fork k0 by k': every count over the forks moves by [p k'] - [p k0] *)
Lemma window_update g s s' f k0 k' :
  Window g s -> nth_error (forks s) f = Some k0 -> forks s' = set_nth f k' (forks s) ->
  (forall i, nth i (bns s') 0 + Nat.b2n (passedb i k0) = nth i (bns s) 0 + Nat.b2n (passedb i k')) ->
  length (bns s') + count (box_full g) (bns s) + length (buffer s) + Nat.b2n (is_pc3 k') + Nat.b2n (is_pend k0)
  = length (bns s) + count (box_full g) (bns s') + length (buffer s') + Nat.b2n (is_pc3 k0) + Nat.b2n (is_pend k') ->
  length (buffer s') <= bufsize g ->
  Window g s'.
Proof.
  intros [Wn Wc Wb Wf] Ek Hf Hc Hb Hq.
  assert (D : forall p, count p (forks s') + Nat.b2n (p k0) = count p (forks s) + Nat.b2n (p k'))
    by (intros p; rewrite Hf; apply (count_upd_nth p _ _ _ _ Ek)).
  constructor.
  - rewrite Hf, upd_nth_length. exact Wn.
  - intros i. specialize (D (passedb i)). specialize (Hc i). rewrite Wc in D. lia.
  - pose proof (D is_pc3). pose proof (D is_pend). lia.
  - exact Hq.
Qed.

Lemma window_frame g s s' f k0 k' :
  Window g s -> nth_error (forks s) f = Some k0 -> forks s' = set_nth f k' (forks s) ->
  bns s' = bns s -> buffer s' = buffer s ->
  passed k' = passed k0 -> is_pc3 k' = is_pc3 k0 -> is_pend k' = is_pend k0 ->
  Window g s'.
Proof.
  intros HW Ek Hf Hb Hq Hp H3 Hd. apply (window_update g s s' f k0 k' HW Ek Hf); rewrite ?Hb, ?Hq, ?H3, ?Hd.
  - intros i. unfold passedb. now rewrite Hp.
  - reflexivity.
  - apply HW.
Qed.

(* box.n += 1 *)
Lemma window_inc g s f cur st rc bx :
  Inv s -> Window g s -> nth_error (forks s) f = Some {| nxt := Some cur; started := st; pc := PC2; recv := rc |} ->
  nth_error (boxes s) cur = Some bx ->
  Window g (set_fork (set_boxes s (set_nth cur {| bval := bval bx; bnext := bnext bx; bn := S (bn bx); block := block bx |}
                                      (boxes s))) f
         {| nxt := Some cur; started := st; pc := (if S (bn bx) =? nforks g then PC3 else PC4); recv := rc |}).
Proof.
  intros HI HW Ek Hbx.
  pose proof (k_pos _ _ _ (i_fk _ HI _ _ Ek) _ eq_refl) as Hn. cbn in Hn. subst cur.
  apply (map_nth_error bn) in Hbx. fold (bns s) in Hbx. pose proof (nth_error_nth _ _ 0 Hbx) as Hnth.
  (* the fork itself had not passed the box, so the box was not full *)
  assert (Hlt : box_full g (bn bx) = false).
  { apply Nat.eqb_neq, Nat.lt_neq. rewrite <- Hnth, <- (w_cnt _ _ HW), <- (w_n _ _ HW).
    apply (count_lt _ _ _ _ Ek). unfold passedb, passed. cbn. rewrite Nat.add_0_r. apply Nat.ltb_irrefl. }
  eapply (window_update g s _ f _ _ HW Ek); [reflexivity| | |apply HW];
    unfold bns; cbn [set_fork set_boxes boxes buffer]; rewrite map_upd_nth; cbn [bn]; fold (bns s).
  - intros i. rewrite nth_upd_nth by eauto using nth_error_lt. unfold passedb, passed. cbn [recv pc].
    replace (after_inc (if S (bn bx) =? nforks g then PC3 else PC4)) with true by now destruct (_ =? _).
    cbn [after_inc Nat.b2n]. rewrite Nat.add_0_r, Nat.add_1_r.
    destruct (Nat.eq_dec (length rc) i) as [E|E], (i <? length rc) eqn:E1, (i <? S (length rc)) eqn:E2;
      bool_to_prop; subst; cbn; lia.
  - pose proof (count_upd_nth (box_full g) _ (S (bn bx)) _ _ Hbx) as Hc. rewrite Hlt in Hc.
    change (box_full g (S (bn bx))) with (S (bn bx) =? nforks g) in Hc.
    rewrite upd_nth_length. cbn. destruct (_ =? nforks g); cbn in *; lia.
Qed.

Lemma window_step g s l s' e : Inv s -> Window g s -> step g s l = Some (s', e) -> Window g s'.
Proof.
  intros HI HW Hs. destruct l as [f ex]. cbn in Hs. unfold step_f in Hs.
  destruct (nth_error (forks s) f) as [k0|] eqn:Ek; [|discriminate].
  (* a fresh box (n = 0) is not full: the fork that moves exists, so nforks >= 1 *)
  assert (Hn0 : box_full g 0 = false).
  { apply Nat.eqb_neq. rewrite <- (w_n _ _ HW). apply nth_error_lt in Ek. lia. }
  destruct (pull s) as [[[s1 got] v] exc] eqn:Ep. destruct (pull_cases _ _ _ _ _ Ep) as (done & r & _ & -> & _).
  destruct k0 as [nx st p rc]. unfold with_pc in Hs. cbn [pc nxt started recv] in Hs.
  step_cases Hs.
  all: lazymatch goal with
       | |- Window _ (set_fork (pulled_state _ _ _) _ _) =>
           (* a fresh box that nobody has passed; the puller now holds a box it has not queued yet *)
           eapply (window_update g s _ f _ _ HW Ek); [reflexivity| | |apply HW];
           unfold bns; cbn [set_fork pulled_state set_boxes set_rest boxes buffer];
           rewrite map_app; cbn [map bn]; fold (bns s);
           [intros i; rewrite nth_snoc; destruct (Nat.eq_dec _ i) as [<-|]; [now rewrite nth_overflow|reflexivity]
           |rewrite app_length, count_snoc, Hn0; cbn; lia]
       | |- Window _ (set_fork (set_buffer _ (_ ++ _)) _ _) =>
           (* buffer.put(box) *)
           eapply (window_update g s _ f _ _ HW Ek); [reflexivity|..];
           unfold bns; cbn [set_fork set_buffer buffer boxes]; rewrite ?app_length;
           [intros i; reflexivity | cbn; lia | unfold buf_full in *; bool_to_prop; cbn; lia]
       | H : buffer _ = _ :: _ |- Window _ (set_fork (set_buffer _ _) _ _) =>
           (* buffer.get() by the fork that filled a box *)
           pose proof (w_buf _ _ HW) as Wf; eapply (window_update g s _ f _ _ HW Ek); [reflexivity|..];
           unfold bns; cbn [set_fork set_buffer buffer boxes]; rewrite H in *;
           [intros i; reflexivity | cbn; lia | cbn in Wf; lia]
       | Hbx : nth_error (boxes _) _ = Some ?bx, Hq : (S (bn ?bx) =? nforks _) = _ |- _ =>
           pose proof (window_inc g s f _ st rc bx HI HW Ek Hbx) as Hw; rewrite Hq in Hw; exact Hw
       | |- _ =>
           (* the value is handed over (PR), or nothing Window looks at changes *)
           eapply window_frame;
           [exact HW | exact Ek | reflexivity
           | first [reflexivity | eapply map_upd_nth_same; [eassumption|reflexivity]]
           | reflexivity | first [reflexivity | unfold passed; cbn; rewrite app_length; cbn; lia]
           | reflexivity | reflexivity]
       end.
Qed.

Lemma window_run g sched : Window g (run step g (init g) sched).
Proof. apply (inv_run_under step g Inv (Window g)); [apply inv_run|exact (window_step g)|apply window_init]. Qed.

(* a fork holding an unqueued box is inside the critical section, so there is at most one *)
Lemma pend_le_1 s : Inv s -> count is_pend (forks s) <= 1.
Proof.
  intros HI. apply count_unique. intros i j x y Hi Hj Hx Hy.
  assert (Hc : forall k, is_pend k = true -> in_cs (pc k) = true)
    by (intros k; unfold is_pend; now destruct (pc k)).
  eauto using cs_unique.
Qed.

Lemma full_passed g s i f k :
  Window g s -> box_full g (nth i (bns s) 0) = true -> nth_error (forks s) f = Some k -> passedb i k = true.
Proof.
  intros HW Hc Hk. destruct (passedb i k) eqn:E; [reflexivity|].
  pose proof (count_lt _ _ _ _ Hk E) as Hlt. rewrite (w_cnt _ _ HW), (w_n _ _ HW) in Hlt.
  apply Nat.eqb_eq in Hc. lia.
Qed.

(* pulled = boxes <= full boxes + queue + unqueued (w_bal) <= (recv k + 1) + bufsize + 1: one box this fork has counted
   but not yet handed over (after_inc), one box its puller has not queued yet (pend_le_1) *)
Theorem tee_window g sched f k :
  let s := run step g (init g) sched in
  nth_error (forks s) f = Some k -> pulled s <= length (recv k) + bufsize g + 2.
Proof.
  intros s Hk. pose proof (window_run g sched) as HW. fold s in HW.
  destruct (source_pulled_once g sched) as [HL _]. fold s in HL. rewrite <- HL, <- (map_length bn). fold (bns s).
  pose proof (w_bal _ _ HW). pose proof (w_buf _ _ HW). pose proof (pend_le_1 s (inv_run g sched)).
  assert (Hc : count (box_full g) (bns s) <= length (recv k) + 1); [|lia].
  apply count_below. intros i n Hi Hn. rewrite <- (nth_error_nth _ _ 0 Hi) in Hn.
  pose proof (full_passed g s i f k HW Hn Hk) as Hps.
  unfold passedb, passed in Hps. bool_to_prop. destruct (after_inc (pc k)); cbn in Hps; lia.
Qed.
