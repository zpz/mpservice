(* C15: what one hop makes of an exception that arrived from another process ([hop_arrived]), any number
   of hops by induction ([hops_arrived]); [journey] is the first hop from the origin followed by those. *)
From MpV Require Import Model.RemoteExc.

Lemma infix_refl x : Infix x x.
Proof. exists [], []. now rewrite app_nil_r. Qed.

Lemma infix_trans x y z : Infix x y -> Infix y z -> Infix x z.
Proof.
  intros [a [b ->]] [c [d ->]]. exists (c ++ a), (b ++ d). now rewrite <- !app_assoc.
Qed.

(* An exception that arrived from another process has no live traceback and carries a remote text [t].
   The token codes are integers computed from [p] and [c]: the proofs reduce [app] and the record
   projections only, never the arithmetic. *)
Lemma hop_arrived p a c ar t :
  exists t', hop p a {| cls := c; args := ar; live_tb := None; cause_tb := Some t |}
             = Some {| cls := c; args := ar; live_tb := None; cause_tb := Some t' |}
    /\ Infix t t' /\ (a = Forward -> t' = t).
Proof.
  destruct a as [|fr]; (eexists; split; [reflexivity|]).
  - split; [apply infix_refl|reflexivity].
  - split; [|discriminate]. exists [tok_proc p; TOK_RTB], ([TOK_SEP; TOK_HDR] ++ fr ++ [tok_exc c]).
    unfold format_exception. cbn [app act reraise cause_tb cls]. now rewrite <- app_assoc.
Qed.

Lemma hops_arrived acts : forall p c ar t,
  exists t', hops p acts {| cls := c; args := ar; live_tb := None; cause_tb := Some t |}
             = Some {| cls := c; args := ar; live_tb := None; cause_tb := Some t' |}
    /\ Infix t t' /\ (Forall (fun a => a = Forward) acts -> t' = t).
Proof.
  induction acts as [|a acts IH]; intros p c ar t; cbn [hops].
  - exists t. auto using infix_refl.
  - destruct (hop_arrived p a c ar t) as (t1 & -> & Hi & Hf).
    destruct (IH (p + 1) c ar t1) as (t' & -> & Hi' & Hf').
    exists t'. split; [reflexivity|]. split; [eapply infix_trans; eassumption|].
    intros [Ha HF]%Forall_cons_iff. rewrite (Hf' HF). exact (Hf Ha).
Qed.

Lemma journey frames0 acts p e0 :
  live_tb e0 = None -> cause_tb e0 = None ->
  exists e1, hop p (Reraise frames0) e0 = Some e1 /\
  exists ek, hops (p + 1) acts e1 = Some ek
    /\ cls ek = cls e0 /\ args ek = args e0 /\ is_remote ek = true
    /\ Infix (remote_text e1) (remote_text ek)
    /\ (Forall (fun a => a = Forward) acts -> remote_text ek = remote_text e1)
    /\ remote_text e1 = [tok_proc p; TOK_HDR] ++ frames0 ++ [tok_exc (cls e0)].
Proof.
  destruct e0 as [c ar l ct]; cbn [live_tb cause_tb cls args]. intros -> ->.
  set (t1 := [tok_proc p; TOK_HDR] ++ frames0 ++ [tok_exc c]).
  destruct (hops_arrived acts (p + 1) c ar t1) as (t' & Hk & Hi & Hf).
  eexists. split; [reflexivity|]. eexists. split; [exact Hk|]. do 3 (split; [reflexivity|]). split; [exact Hi|]. split; [exact Hf|reflexivity].
Qed.

Lemma wrap_needs_traceback p e : live_tb e = None -> cause_tb e = None -> wrap p e = None.
Proof. unfold wrap. now intros -> ->. Qed.

Lemma prefixb_sound x : forall y, prefixb x y = true -> exists post, y = x ++ post.
Proof.
  induction x as [|a x IH]; intros [|b y]; cbn; intros H; try discriminate; eauto.
  apply andb_true_iff in H as [->%Z.eqb_eq H]. destruct (IH _ H) as [post ->]. eauto.
Qed.

Lemma infixb_sound x y : infixb x y = true -> Infix x y.
Proof.
  assert (P : forall y, prefixb x y = true -> Infix x y)
    by (intros y' [post ->]%prefixb_sound; now exists [], post).
  induction y as [|b y IH]; cbn; intros [H|H]%orb_true_iff; auto; [discriminate|].
  destruct (IH H) as [pre [post ->]]. now exists (b :: pre), post.
Qed.
