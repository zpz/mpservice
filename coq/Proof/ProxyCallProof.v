(* C14. A request replaces the addressed object and may append newly hosted ones; for a list, dict, Value or
   Namespace the replacement and the answer are those of the direct call; a factory's record of what it has
   handed out only grows. The theorems about histories are inductions over the requests. *)
From MpV Require Import Lib.Tac Lib.ListFacts Model.ProxyCall.
From Coq Require Import Lia.
Open Scope nat_scope.

(* used in the statements of Props/C14.v *)
Definition ops_to (a : nat) (reqs : list (nat * op)) : list op := map snd (filter (fun p => Nat.eqb (fst p) a) reqs).
Definition answers_to (a : nat) (reqs : list (nat * op)) (rs : list resp) : list resp :=
  map snd (filter (fun p => Nat.eqb (fst (fst p)) a) (combine reqs rs)).

Lemma set_obj_upd n x l : set_obj n x l = upd_nth n x l.
Proof. revert n; induction l as [|h t IH]; intros [|n]; cbn; rewrite ?IH; reflexivity. Qed.

Lemma serve_plain s a x o :
  nth_error s a = Some x -> is_plain x = true ->
  serve s a o = (upd_nth a (fst (apply_plain x o)) s, snd (apply_plain x o)).
Proof.
  intros Ha Hp. pose proof (upd_nth_same _ _ _ Ha) as E. unfold serve, apply_plain. rewrite Ha.
  (* both sides branch alike on the kind of object and the operation; in each branch the object is written back by
     set_obj or, unchanged, by E *)
  destruct x; try discriminate;
    repeat match goal with |- context [match ?e with _ => _ end] => destruct e end;
    cbn [fst snd]; rewrite ?set_obj_upd, ?E; reflexivity.
Qed.

Lemma serve_factory_shape s f made o :
  nth_error s f = Some (OFactory made) ->
  exists more new, fst (serve s f o) = upd_nth f (OFactory (made ++ more)) s ++ new.
Proof.
  intros Hf. assert (U : exists more new, s = upd_nth f (OFactory (made ++ more)) s ++ new)
    by (exists [], []; now rewrite !app_nil_r, (upd_nth_same _ _ _ Hf)).
  (* only FMakeList changes anything; for FPeek that shows once its two lookups are split *)
  unfold serve. rewrite Hf. destruct o; try exact U.
  - exists [length s], [OList xs]. cbn [fst]. now rewrite set_obj_upd.
  - destruct (nth_error made i) as [j|]; [destruct (nth_error s j) as [[| | | |]|]|]; exact U.
Qed.

Lemma serve_shape s a o : exists x new, fst (serve s a o) = upd_nth a x s ++ new.
Proof.
  destruct (nth_error s a) as [x|] eqn:Ea; [destruct (is_plain x) eqn:Hp|].
  - exists (fst (apply_plain x o)), []. now rewrite (serve_plain _ _ _ _ Ea Hp), app_nil_r.
  - destruct x as [| | |made|]; try discriminate. destruct (serve_factory_shape _ _ _ o Ea) as (more & new & E). eauto.
  - exists (OList []), []. unfold serve. now rewrite Ea, app_nil_r, upd_nth_none.
Qed.

Lemma serve_other s a o b : a <> b -> b < length s -> nth_error (fst (serve s a o)) b = nth_error s b.
Proof.
  intros Hne Hb. destruct (serve_shape s a o) as (x & new & ->).
  rewrite nth_error_app1 by now rewrite upd_nth_length. now apply nth_error_upd_nth_other.
Qed.

Lemma serve_length s a o : length s <= length (fst (serve s a o)).
Proof. destruct (serve_shape s a o) as (x & new & ->). rewrite app_length, upd_nth_length. lia. Qed.

Lemma apply_plain_plain x o : is_plain x = true -> is_plain (fst (apply_plain x o)) = true.
Proof.
  intros H. unfold apply_plain. destruct x; try discriminate;
    repeat match goal with |- context [match ?e with _ => _ end] => destruct e end; reflexivity.
Qed.

Lemma run_cons s id o rest :
  run s ((id, o) :: rest) = (fst (run (fst (serve s id o)) rest), snd (serve s id o) :: snd (run (fst (serve s id o)) rest)).
Proof. cbn [run]. destruct (serve s id o) as [s1 r]; cbn [fst snd]. now destruct (run s1 rest). Qed.

Lemma direct_cons x o ops :
  direct x (o :: ops) = (fst (direct (fst (apply_plain x o)) ops), snd (apply_plain x o) :: snd (direct (fst (apply_plain x o)) ops)).
Proof. cbn [direct]. destruct (apply_plain x o) as [x1 r]; cbn [fst snd]. now destruct (direct x1 ops). Qed.

Lemma ops_to_cons a id o rest : ops_to a ((id, o) :: rest) = if Nat.eqb id a then o :: ops_to a rest else ops_to a rest.
Proof. unfold ops_to. cbn. now destruct (Nat.eqb id a). Qed.

Lemma answers_to_cons a id o rest r rs :
  answers_to a ((id, o) :: rest) (r :: rs) = if Nat.eqb id a then r :: answers_to a rest rs else answers_to a rest rs.
Proof. unfold answers_to. cbn. now destruct (Nat.eqb id a). Qed.

Lemma proxy_equals_direct : forall reqs s a x,
  nth_error s a = Some x -> is_plain x = true ->
  answers_to a reqs (snd (run s reqs)) = snd (direct x (ops_to a reqs)) /\
  nth_error (fst (run s reqs)) a = Some (fst (direct x (ops_to a reqs))).
Proof.
  induction reqs as [|[id o] rest IH]; intros s a x Ha Hp; [cbn; auto|].
  rewrite run_cons, ops_to_cons. cbn [fst snd]. rewrite answers_to_cons.
  destruct (Nat.eqb_spec id a) as [->|Hne].
  - rewrite direct_cons, (serve_plain _ _ _ o Ha Hp). cbn [fst snd].
    destruct (IH (upd_nth a (fst (apply_plain x o)) s) a (fst (apply_plain x o))) as [I1 I2];
      [eapply nth_error_upd_nth_same, Ha|now apply apply_plain_plain|].
    split; [f_equal; exact I1|exact I2].
  - apply IH; [|exact Hp]. rewrite serve_other; eauto using nth_error_lt.
Qed.

Lemma error_leaves_state x o c arg : snd (apply_plain x o) = RErr c arg -> fst (apply_plain x o) = x.
Proof.
  unfold apply_plain. destruct x as [l|d|z|made|ns]; cbn [fst snd]; auto.
  - destruct (apply_list l o) as [[l' r]|] eqn:E; cbn [fst snd]; auto. intros ->.
    unfold apply_list in E. destruct o; try discriminate; break_match_hyp E; inv E; reflexivity.
  - destruct (apply_dict d o) as [[d' r]|] eqn:E; cbn [fst snd]; auto. intros ->.
    unfold apply_dict in E. destruct o; try discriminate; break_match_hyp E; inv E; reflexivity.
  - destruct o; cbn [fst snd]; auto; discriminate.
  - destruct o; cbn [fst snd]; auto; destruct (d_get k ns); cbn [fst snd]; auto; discriminate.
Qed.

Lemma direct_list : forall ops xs, exists l', fst (direct (OList xs) ops) = OList l'.
Proof.
  induction ops as [|o ops IH]; intros xs; [now exists xs|].
  rewrite direct_cons. cbn [fst apply_plain]. destruct (apply_list xs o) as [[l1 r1]|]; apply IH.
Qed.

Lemma serve_factory_grows s f made a o :
  nth_error s f = Some (OFactory made) -> exists more, nth_error (fst (serve s a o)) f = Some (OFactory (made ++ more)).
Proof.
  intros Hf. pose proof (nth_error_lt _ _ _ Hf) as Hlt. destruct (Nat.eq_dec a f) as [->|Hne].
  - destruct (serve_factory_shape _ _ _ o Hf) as (more & new & ->). exists more.
    rewrite nth_error_app1 by now rewrite upd_nth_length. eapply nth_error_upd_nth_same, Hf.
  - exists []. now rewrite app_nil_r, serve_other.
Qed.

Lemma run_factory_grows f : forall reqs s made,
  nth_error s f = Some (OFactory made) -> exists more, nth_error (fst (run s reqs)) f = Some (OFactory (made ++ more)).
Proof.
  induction reqs as [|[id o] rest IH]; intros s made Hf; [exists []; now rewrite app_nil_r|].
  rewrite run_cons. cbn [fst]. destruct (serve_factory_grows s f made id o Hf) as [m1 H1]. destruct (IH _ _ H1) as [m2 H2].
  exists (m1 ++ m2). now rewrite app_assoc.
Qed.

(* managed_value_is_live for every history: requests to the factory in between do not matter, FPeek (length made)
   still finds the value *)
Lemma managed_value_stays_live s f made xs reqs :
  nth_error s f = Some (OFactory made) ->
  let j := length s in
  let s1 := fst (serve s f (FMakeList xs)) in
  snd (serve s f (FMakeList xs)) = RProxy j /\
  exists l', fst (direct (OList xs) (ops_to j reqs)) = OList l' /\
             snd (serve (fst (run s1 reqs)) f (FPeek (length made))) = ROk (VList l').
Proof.
  intros Hf j s1.
  assert (Es : serve s f (FMakeList xs) = (upd_nth f (OFactory (made ++ [j])) s ++ [OList xs], RProxy j))
    by (unfold serve; now rewrite Hf, set_obj_upd).
  subst s1. rewrite Es. cbn [fst snd]. split; [reflexivity|]. set (s0 := _ ++ [OList xs]).
  destruct (direct_list (ops_to j reqs) xs) as [l' Hl]. exists l'. split; [exact Hl|].
  (* afterwards the new list is what the direct calls made of it, and the factory's record still has it at
     the same place *)
  assert (Hj : nth_error (fst (run s0 reqs)) j = Some (OList l')).
  { rewrite <- Hl. apply proxy_equals_direct; [|reflexivity].
    unfold j. rewrite <- (upd_nth_length f (OFactory (made ++ [length s])) s). apply nth_error_snoc_last. }
  destruct (run_factory_grows f reqs s0 (made ++ [j])) as [more Hf'].
  { apply nth_error_snoc_some. eapply nth_error_upd_nth_same, Hf. }
  unfold serve. rewrite Hf', nth_error_app1, nth_error_snoc_last, Hj; [reflexivity|]. rewrite app_length. cbn. lia.
Qed.

Lemma managed_value_is_live s f made xs reqs :
  nth_error s f = Some (OFactory made) ->
  (forall p, In p reqs -> fst p <> f) ->
  let j := length s in
  let s1 := fst (serve s f (FMakeList xs)) in
  snd (serve s f (FMakeList xs)) = RProxy j /\
  exists l', fst (direct (OList xs) (ops_to j reqs)) = OList l' /\
             snd (serve (fst (run s1 reqs)) f (FPeek (length made))) = ROk (VList l').
Proof. intros Hf _. apply managed_value_stays_live, Hf. Qed.
