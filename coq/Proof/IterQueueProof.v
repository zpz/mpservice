(* Model/IterQueue.v, C17: one ledger - put = received + queued + swallowed by a failing renew(), as multisets - and the
   three ways a step changes it (a supplier puts, a consumer takes, renew() swallows). *)
From MpV Require Import Lib.Tac Lib.Conc Model.IterQueue.
From Coq Require Import Permutation.
Open Scope nat_scope.

(* = IterQueue.q_items, stated on the list so that items_of_app applies *)
Definition items_of (l : list (option Z)) : list Z :=
  flat_map (fun m => match m with Some x => [x] | None => [] end) l.

Lemma items_of_app a b : items_of (a ++ b) = items_of a ++ items_of b.
Proof. unfold items_of. apply flat_map_app. Qed.

Definition InvP (s : state) : Prop :=
  Permutation (recv_total s ++ items_of (q s) ++ renew_ate s) (put_all s).

Lemma invp_init g : InvP (init g).
Proof. unfold InvP, init; cbn. constructor. Qed.

Lemma perm_put (r qi a p : list Z) x :
  Permutation (r ++ qi ++ a) p -> Permutation (r ++ (qi ++ [x]) ++ a) (p ++ [x]).
Proof. intros H. rewrite <- app_assoc, app_assoc. apply Permutation_elt. now rewrite <- app_assoc, app_nil_r. Qed.

Lemma perm_ate (r qi a p : list Z) x :
  Permutation (r ++ (x :: qi) ++ a) p -> Permutation (r ++ qi ++ a ++ [x]) p.
Proof.
  intros H. rewrite <- H, (app_assoc qi), (app_assoc r). apply (Permutation_elt _ [] r). now rewrite app_nil_r.
Qed.

Lemma invp_step g s l s' e : InvP s -> step g s l = Some (s', e) -> InvP s'.
Proof.
  unfold InvP. intros H Hs.
  (* most steps leave the four lists of the ledger as they are, up to computation *)
  destruct l as [i [|]|c|]; cbn in Hs; unfold step_s, step_c, step_r in Hs; step_cases Hs; try exact H;
    cbn; rewrite ?items_of_app; cbn; rewrite ?app_nil_r; try exact H.
  (* what is left changes the ledger: a supplier puts an item (wherever put_all grows), *)
  all: try exact (perm_put _ _ _ _ _ H).
  - (* a consumer takes one, *) rewrite <- app_assoc. exact H.
  - (* renew() swallows one *) exact (perm_ate _ _ _ _ _ H).
Qed.

Lemma items_exactly_once g sched :
  let s := run step g (init g) sched in
  Permutation (recv_total s ++ items_of (q s) ++ renew_ate s) (put_all s).
Proof. apply (inv_run step g InvP); [exact (invp_step g)|apply invp_init]. Qed.

(* nothing is received that was not put, and nothing is received twice: the received items form a
   sub-multiset of the items put *)
Lemma received_sub_put g sched :
  let s := run step g (init g) sched in
  exists others, Permutation (recv_total s ++ others) (put_all s).
Proof. cbn. eexists. apply items_exactly_once. Qed.
