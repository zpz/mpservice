(* C18, second part: a record that has not arrived completely is never delivered as a record. *)
From MpV Require Import Lib.ListFacts Model.SockFrame Proof.SockFrameProof.
From Coq Require Import Lia.

Lemma forallb_firstn {A} (f : A -> bool) k l : forallb f l = true -> forallb f (firstn k l) = true.
Proof. intros H. rewrite <- (firstn_skipn k l), forallb_app in H. now apply andb_true_iff in H. Qed.

Lemma truncated_record_not_delivered id enc payload k :
  wf_token id = true -> wf_token enc = true ->
  k < length (encode_record id enc payload) ->
  read_record (firstn k (encode_record id enc payload)) = None.
Proof.
  intros Hi He. unfold encode_record. rewrite app_length. intros Hk.
  destruct (Nat.le_gt_cases (length (header id enc (length payload))) k) as [Hh|Hh].
  - (* the header is complete, the payload is not *)
    rewrite firstn_app, firstn_all2, read_record_header by assumption.
    now rewrite read_exactly_short by (rewrite firstn_length; lia).
  - (* the newline has not arrived *)
    rewrite firstn_app_le by lia. rewrite header_line, app_length, Nat.add_1_r in *.
    rewrite firstn_app_le by lia. unfold read_record.
    rewrite <- (app_nil_r (firstn k _)), read_until_nl_skip; [reflexivity|].
    now apply forallb_firstn, line_no_nl.
Qed.
