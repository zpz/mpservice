(* C05 liveness half for Buffer: no reachable state is a deadlock when the source raises only ordinary exceptions - for every
   maxsize >= 1 with the finalizer that keeps draining while it waits for the worker (repair C), and for maxsize >= 3 with the
   finalizer before the repair. *)
From MpV Require Import Lib.Tac Lib.Conc Lib.ListFacts Model.Buffer.
From MpV Require Proof.BufferProof.
Open Scope nat_scope.

Definition is_base (x : src_item) : bool := match x with SRaiseBase _ => true | _ => false end.
Definition no_base (l : list src_item) : Prop := forallb (fun x => negb (is_base x)) l = true.

(* what the worker at [w] puts next whatever happens, and whether it is inside its loop *)
Definition committed (w : wpc) : list item :=
  match w with WPut x => [Data x] | WFin => [Fin] | WStp e => [Stp; Exc e] | WExc e => [Exc e] | _ => [] end.
Definition in_loop (w : wpc) : bool := match w with WNext | WChk _ | WPut _ => true | _ => false end.

(* [stream c l]: l is data items followed, if [c = false] (the worker has left its loop), by exactly the end marker or by
   STOPPED and one exception item, and, if [c = true], by nothing. It is stated of what the consumer will read,
   [q s ++ committed (wp s)]: a put moves an item from [committed] into the queue and changes nothing of it; a pop is
   computation. *)
Fixpoint stream (c : bool) (l : list item) : Prop :=
  match l with
  | [] => c = true
  | Data _ :: r => stream c r
  | Fin :: r => c = false /\ r = []
  | Stp :: r => c = false /\ exists e, r = [Exc e]
  | Exc _ :: _ => False
  end.

Lemma stream_app c a b : stream true a -> stream c b -> stream c (a ++ b).
Proof. induction a as [|[x| | |e] a IH]; cbn; auto; now intros []. Qed.

(* how many more items the worker may still put once the stop flag is set *)
Definition rem (w : wpc) : nat :=
  match w with WPut _ => 3 | WNext | WStp _ => 2 | WChk _ | WFin | WExc _ => 1 | _ => 0 end.

(* On top of BufferProof.Inv, while the source raises no BaseException. While the consumer reads, what it will read is a
   stream; at CGetExc it has taken STOPPED, and with it put back the list is a stream, i.e. the worker is out of its loop and
   exactly the exception item is still to be read. The 3 of the CJoin clause: once the drain has seen the queue empty, what is
   in it plus what the worker may still put ([rem] <= 3) is at most 3, the [maxsize] handoff_no_deadlock asks for when
   drain_join = false (the finalizer before the repair blocks in join; the repaired one goes back to CDrainChk). *)
Definition Handoff (s : state) : Prop :=
  no_base (rest s) /\
  match cp s with
  | CStart | CDone _ => True
  | CGet | CYield _ => stream (in_loop (wp s)) (q s ++ committed (wp s))
  | CGetExc => stream (in_loop (wp s)) (Stp :: q s ++ committed (wp s))
  | CSet _ => True
  | CDrainChk _ => stopped s = true
  | CDrainGet _ => stopped s = true /\ q s <> []
  | CJoin _ => stopped s = true /\ length (q s) + rem (wp s) <= 3
  end.

Lemma handoff_step g s l s' e : BufferProof.Inv g s -> Handoff s -> step g s l = Some (s', e) -> Handoff s'.
Proof.
  intros HI [Hb H] Hs. apply BufferProof.b_ends in HI. destruct s as [w c qq st rs pu re dr], l; cbn [step] in Hs.
  - (* the worker *)
    clear HI. unfold Handoff, no_base, step_w, w_put, full, upd_w in *; cbn in *; step_cases Hs; cbn in *.
    (* no_base excludes the BaseException *)
    all: try discriminate Hb.
    (* stream stays folded: H and the goal keep the form [stream c (qq ++ committed w)] for app_assoc and stream_app *)
    all: split; [assumption|]; destruct c; cbn -[stream] in *; trivial.
    (* the finalizer (recognised by H being [stopped = true /\ _]): with the flag set the branch WChk -> WPut is dead (hence
       rem (WChk _) = 1); an append makes the queue non-empty and uses up one put of the budget *)
    all: try match type of H with _ = true /\ _ =>
               destruct H as (Hst & H); try discriminate Hst; split; trivial;
               (apply snoc_not_nil || (rewrite ?app_length; cbn; lia))
             end.
    (* a put moves an item from [committed] into the queue *)
    all: try (rewrite <- app_assoc; exact H).
    (* the consumer has taken STOPPED and the worker is inside its loop: no stream *)
    all: try now destruct H.
    (* the worker leaves its loop, or takes a data item to put: so far the queue holds nothing but data *)
    all: rewrite app_nil_r in H; apply (stream_app _ _ _ H); cbn; now eauto.
  - (* the consumer *)
    unfold Handoff, step_c, c_pop, upd_c, after_recv in *; cbn in *; step_cases Hs; cbn in *.
    (* CGet takes a data item or STOPPED: what is left is a [stream] by computation *)
    all: split; [assumption|]; trivial.
    (* CDrainGet and CJoin, the finalizer's loop: the stop flag stays *)
    all: try apply H.
    + (* CStart, _start(): the queue is empty *)
      now destruct HI as [_ ->].
    + (* CDrainChk, queue seen empty: what the worker may still put is within its budget *)
      rewrite H. split; trivial. destruct w; cbn; lia.
    + (* CDrainChk, queue seen non-empty *)
      now rewrite H.
Qed.

Lemma handoff_run g sched : no_base (src g) -> Handoff (run step g (init g) sched).
Proof.
  intros Hs. apply (inv_run_under step g (BufferProof.Inv g) Handoff); [apply BufferProof.inv_run| |now split].
  exact (handoff_step g).
Qed.

Definition is_put (w : wpc) : bool :=
  match w with WPut _ | WFin | WStp _ | WExc _ => true | _ => false end.

Lemma w_put_none g s it n : w_put g s it n = None -> maxsize g <= length (q s).
Proof. unfold w_put, full. destruct (Nat.leb_spec (maxsize g) (length (q s))); [auto|discriminate]. Qed.

Lemma step_w_none g s : step_w g s = None ->
  w_finished s = true \/ wp s = WIdle \/ (is_put (wp s) = true /\ maxsize g <= length (q s)).
Proof.
  unfold step_w, w_finished. destruct (wp s); auto; intros H; try (apply w_put_none in H; now auto).
  - (* WNext *) destruct (rest s) as [|[]]; discriminate.
  - (* WChk *) destruct (stopped s); discriminate.
Qed.

Lemma step_c_none g s : step_c g s = None ->
  match cp s with
  | CGet => q s = [] \/ exists e l, q s = Exc e :: l
  | CGetExc => q s = [] \/ exists i l, q s = i :: l /\ forall e, i <> Exc e
  | CDrainGet _ => q s = []
  | CJoin _ => w_finished s = false /\ drain_join g = false
  | CDone _ => True
  | _ => False
  end.
Proof.
  destruct s as [w c qq st rs pu re dr]. unfold step_c, c_pop, upd_c, after_recv, w_finished. cbn.
  destruct c; cbn; intros H; break_match_hyp H; subst; auto; try discriminate H.
  all: right; eauto; eexists; eexists; (split; [reflexivity|intros; discriminate]).
Qed.

Lemma handoff_no_deadlock g s :
  1 <= maxsize g -> drain_join g = true \/ 3 <= maxsize g -> BufferProof.Inv g s -> Handoff s -> deadlocked g s = false.
Proof.
  intros Hm1 Hm HI [Hb H]. apply BufferProof.b_ends in HI. unfold deadlocked.
  destruct (step g s W) as [[sw ew]|] eqn:Ew; [apply andb_false_r|].
  destruct (step g s C) as [[sc ec]|] eqn:Ec; [apply andb_false_r|].
  rewrite andb_true_r. apply negb_false_iff.
  cbn in Ew, Ec. apply step_w_none in Ew. apply step_c_none in Ec.
  unfold final. destruct (cp s) eqn:Ecp; try contradiction; try exact HI; exfalso.
  - (* get on an empty queue (no stream begins with an exception item): a worker that is idle or finished has nothing
       committed, so the consumer would read the empty list with c = false, which is no stream; so the worker is in a put -
       on an empty queue of size >= 1 *)
    destruct Ec as [Eq|(e & l & Eq)]; rewrite Eq in *; [|exact H].
    unfold w_finished in Ew. destruct (wp s), Ew as [Hf|[Hi|[Hp Hlen]]]; cbn in *; try discriminate; lia.
  - (* the exception item is at the head, or the worker is about to put it into an empty queue *)
    destruct H as (_ & e & H). destruct Ec as [Eq|(i & l & Eq & Hne)]; rewrite Eq in *.
    + unfold w_finished in Ew. destruct (wp s), Ew as [Hf|[Hi|[Hp Hlen]]]; cbn in *; try discriminate; lia.
    + injection H as -> _. now apply (Hne e).
  - (* reached only on a queue seen non-empty *)
    destruct H as [_ H]. contradiction.
  - (* the finalizer before the repair only: at most three items still to come, three slots *)
    destruct H as (Hst & Hn). destruct Ec as [Ec Edj].
    destruct Hm as [Hm|Hm]; [congruence|].
    destruct Ew as [Hf|[Hi|[Hp Hlen]]].
    + congruence.
    + now rewrite Hi in HI.
    + destruct (wp s); cbn in Hp, Hn; try discriminate; lia.
Qed.

Theorem buffer_no_deadlock g sched :
  no_base (src g) -> (1 <= maxsize g)%nat -> drain_join g = true -> deadlocked g (run step g (init g) sched) = false.
Proof. intros Hs Hm Hd. apply handoff_no_deadlock; [exact Hm|left; exact Hd|apply BufferProof.inv_run|apply handoff_run; exact Hs]. Qed.

Theorem buffer3_no_deadlock_before_repair g sched :
  no_base (src g) -> (3 <= maxsize g)%nat -> deadlocked g (run step g (init g) sched) = false.
Proof. intros Hs Hm. apply handoff_no_deadlock; [lia|right; exact Hm|apply BufferProof.inv_run|apply handoff_run; exact Hs]. Qed.

(* the premises are satisfiable and the conclusion is not trivially about the initial state *)
Example buffer_no_deadlock_nonvacuous :
  let g := {| maxsize := 1%nat; src := [SData 0; SData 1; SRaise 7; SData 2]; stop_after := Some 1%nat; drain_join := true |} in
  no_base (src g) /\ (1 <= maxsize g)%nat /\
  cp (run step g (init g) [C; W; W; W; C; C; W; W; C; C; W; W; W; C; W; C]) <> CStart.
Proof. split; [reflexivity|split; [apply le_n|vm_compute; discriminate]]. Qed.

(* steps the worker has left once the stop flag is set *)
Definition steps_left (w : wpc) : nat :=
  match w with WPut _ => 4 | WNext => 3 | WChk _ | WStp _ => 2 | WFin | WExc _ => 1 | WIdle | WDone | WDead _ => 0 end.

Lemma worker_step_after_stop_uses_one_up g s s' e :
  stopped s = true -> step_w g s = Some (s', e) -> stopped s' = true /\ steps_left (wp s') < steps_left (wp s).
Proof.
  destruct s as [w c qq st rs pu re dr]. cbn. intros -> Hs.
  unfold step_w, w_put, full, upd_w in Hs; cbn in Hs; step_cases Hs; cbn; split; try reflexivity; lia.
Qed.

Lemma worker_can_move_when_room g s :
  length (q s) < maxsize g -> w_finished s = false -> wp s <> WIdle -> step_w g s <> None.
Proof. intros Hl Hf Hi E. apply step_w_none in E as [E|[E|[_ E]]]; [congruence|contradiction|lia]. Qed.
