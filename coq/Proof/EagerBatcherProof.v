(* C19: one induction over [run_from] for what is in the batches and when they are yielded. *)
From MpV Require Import Model.EagerBatcher Proof.EagerBatcherTime.
From Coq Require Import Lia.

Definition wf (g : cfg) (s : st) : Prop :=
  match s with
  | Coll now batch deadline t0 =>
      (1 <= length batch < bsize g)%nat /\ deadline = t0 + wait g /\ t0 <= now <= deadline
  | _ => True
  end.

Definition pending (s : st) : list Z :=
  match s with Coll _ batch _ _ => batch | _ => [] end.

(* [lo] is no later than the clock value from which the next batch's first item counts; [Ended] has none *)
Definition after (lo : Z) (s : st) : Prop :=
  match s with Idle n => lo <= n | Coll _ _ _ t0 => lo <= t0 | Ended => True end.

Definition all_items (o : list emitted) : list Z := concat (map items o).

Lemma all_items_app o1 o2 : all_items (o1 ++ o2) = all_items o1 ++ all_items o2.
Proof. unfold all_items. now rewrite map_app, concat_app. Qed.

Definition good_batch (g : cfg) (b : emitted) : Prop :=
  (1 <= length (items b) <= bsize g)%nat
  /\ ((length (items b) < bsize g)%nat ->
        why b = GotEnd \/ (why b = TimedOut /\ forall t, nxt b = Some t -> first_t b + wait g < t))
  /\ (why b = Full -> length (items b) = bsize g /\ etime b = last_t b)
  /\ (why b = GotEnd -> etime b = last_t b)
  /\ (why b = TimedOut -> etime b = first_t b + wait g)
  /\ first_t b <= last_t b <= etime b.

Definition cfg_ok (g : cfg) : Prop := (1 <= bsize g)%nat /\ 0 <= wait g.

(* a stretch of the run from a state with [after lo]: good batches [o] in clock order from [lo], ending in a
   well-formed [s'] whose clock is not before the last yield *)
Definition yields (g : cfg) (lo : Z) (o : list emitted) (s' : st) : Prop :=
  wf g s' /\ Forall (good_batch g) o /\ chain g lo o /\ after (endclk lo o) s'.

Lemma idle_step_ok g now a s o lo :
  cfg_ok g -> lo <= now -> idle_step g now a = (s, o) ->
  yields g lo o s /\
  match amsg a with
  | None => s = Ended /\ o = []
  | Some z => all_items o ++ pending s = [z] /\ s <> Ended
  end.
Proof.
  (* clock: at most one batch goes out, with [first_t = etime = Z.max now (atime a)], which is the new clock *)
  intros [Hb Hw] Hlo. unfold idle_step, start, yields. destruct (amsg a) as [z|]; [|intros [= <- <-]; cbn; auto].
  destruct (1 <? bsize g)%nat eqn:E; intros [= <- <-]; cbn.
  - apply Nat.ltb_lt in E. repeat split; try lia; try discriminate. constructor.
  - apply Nat.ltb_ge in E. repeat split; try lia; try discriminate.
    constructor; [|constructor]. unfold good_batch; cbn. repeat split; try lia; discriminate.
Qed.

Lemma step_ok g s a s' o lo :
  cfg_ok g -> wf g s -> after lo s -> step g s a = (s', o) ->
  yields g lo o s' /\
  (s <> Ended ->
   match amsg a with
   | None => s' = Ended /\ all_items o = pending s
   | Some z => all_items o ++ pending s' = pending s ++ [z] /\ s' <> Ended
   end).
Proof.
  intros Hg Hwf Hlo. destruct s as [now|now batch deadline t0|]; cbn [step pending after] in *.
  - intros H. apply (idle_step_ok _ _ _ _ _ lo) in H; [|assumption..]. destruct (amsg a); [tauto|].
    now destruct H as (? & -> & ->).
  - destruct Hg as [Hb Hw], Hwf as (Hlen & -> & Ht0). unfold yields.
    (* the timed get waits until the deadline *)
    replace (now + Z.max 0 (t0 + wait g - now)) with (t0 + wait g) by lia.
    destruct (atime a <=? t0 + wait g) eqn:E.
    + (* in time: a batch that goes out has [first_t = t0] and [etime = Z.max now (atime a) <= t0 + wait g];
         a state that goes on collecting keeps [t0] *)
      apply Z.leb_le in E. destruct (amsg a) as [z|].
      * rewrite app_length, Nat.add_1_r.
        destruct (S (length batch) <? bsize g)%nat eqn:E2; intros [= <- <-]; cbn.
        -- apply Nat.ltb_lt in E2. rewrite app_length, Nat.add_1_r. repeat split; try lia; try discriminate. constructor.
        -- apply Nat.ltb_ge in E2. unfold all_items; cbn. rewrite !app_nil_r. repeat split; try lia; try discriminate.
           constructor; [|constructor]. unfold good_batch; cbn. rewrite app_length, Nat.add_1_r.
           repeat split; try lia; discriminate.
      * intros [= <- <-]. unfold all_items; cbn. rewrite app_nil_r. repeat split; try lia.
        constructor; [|constructor]. unfold good_batch; cbn. repeat split; try lia; try discriminate. now left.
    + apply Z.leb_gt in E. destruct (idle_step g (t0 + wait g) a) as [s1 o1] eqn:Hi. intros [= <- <-].
      apply (idle_step_ok _ _ _ _ _ (t0 + wait g)) in Hi; [|now split|lia]. destruct Hi as ((Hwf1 & Hgood1 & Hc1 & He1) & Hitems).
      cbn. repeat split; try lia; try assumption.
      * constructor; [|assumption]. unfold good_batch; cbn. repeat split; try lia; try discriminate.
        intros _. right. split; [reflexivity|]. intros t [= <-]. lia.
      * unfold all_items in *; cbn. destruct (amsg a) as [z|].
        -- destruct Hitems as [Hitems Hne1]. now rewrite <- app_assoc, Hitems.
        -- destruct Hitems as [-> ->]. cbn. now rewrite app_nil_r.
  - intros [= <- <-]. repeat split; [constructor|congruence].
Qed.

Lemma step_ended g a : step g Ended a = (Ended, []).
Proof. reflexivity. Qed.

Lemma run_from_ended g arr : run_from g Ended arr = (Ended, []).
Proof. induction arr as [|a rest IH]; cbn; [reflexivity|]. now rewrite IH. Qed.

Lemma flush_ok g s lo :
  wf g s -> after lo s -> Forall (good_batch g) (flush s) /\ all_items (flush s) = pending s /\ chain g lo (flush s).
Proof.
  intros Hwf Hlo. destruct s as [now|now batch deadline t0|]; cbn in *; try (repeat split; constructor).
  destruct Hwf as (Hlen & -> & Ht0). unfold all_items; cbn. rewrite app_nil_r. repeat split; try lia.
  constructor; [|constructor]. unfold good_batch; cbn. repeat split; try lia; try discriminate.
  intros _. right. split; [reflexivity|discriminate].
Qed.

Lemma run_from_ok g arr : forall s s' o lo,
  cfg_ok g -> wf g s -> after lo s -> s <> Ended ->
  run_from g s arr = (s', o) ->
  yields g lo o s' /\
  all_items o ++ pending s' = pending s ++ before_end arr /\
  (s' = Ended <-> has_end arr = true).
Proof.
  induction arr as [|a rest IH]; intros s s' o lo Hg Hwf Hlo Hne; cbn [run_from].
  - intros [= <- <-]. cbn. rewrite app_nil_r. repeat split; auto. discriminate.
  - destruct (step g s a) as [s1 o1] eqn:Hs. destruct (run_from g s1 rest) as [s2 o2] eqn:Hr. intros [= <- <-].
    apply (step_ok _ _ _ _ _ lo) in Hs; try assumption. destruct Hs as ((Hwf1 & Hg1 & Hc1 & He1) & Hm). specialize (Hm Hne).
    cbn [before_end has_end existsb]. destruct (amsg a) as [z|].
    + destruct Hm as [Hm Hne1], (IH s1 s2 o2 _ Hg Hwf1 He1 Hne1 Hr) as ((Hwf2 & Hg2 & Hc2 & He2) & Hi & He).
      (* the output is [o1 ++ o2]: every component of [yields] and the items equation split along the append *)
      unfold yields. rewrite all_items_app, Forall_app, endclk_app, <- app_assoc, Hi, app_assoc, Hm, <- app_assoc.
      repeat split; auto using chain_app; apply He.
    + destruct Hm as [-> Hm]. rewrite run_from_ended in Hr. injection Hr as <- <-.
      rewrite !app_nil_r, Hm. cbn. unfold yields. tauto.
Qed.

Lemma run_ok g arr :
  cfg_ok g ->
  all_items (snd (run g arr)) = before_end arr
  /\ Forall (good_batch g) (snd (run g arr))
  /\ (fst (run g arr) = Finished <-> has_end arr = true)
  /\ chain g 0 (snd (run g arr)).
Proof.
  intros Hg. unfold run. destruct (run_from g (Idle 0) arr) as [s o] eqn:Hr. cbn [fst snd].
  apply (run_from_ok _ _ _ _ _ 0) in Hr; [|assumption|exact I|apply Z.le_refl|discriminate].
  destruct Hr as ((Hwf & Hgood & Hc & Ha) & Hi & He).
  destruct (flush_ok g s _ Hwf Ha) as (Hfg & Hfi & Hfc). rewrite all_items_app, Hfi, Forall_app, <- He.
  repeat split; auto using chain_app; destruct s; congruence.
Qed.
