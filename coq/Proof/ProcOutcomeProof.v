(* C12. The model is a finite table of endings, kill phases and signals; the theorems are read off it by cases. *)
From MpV Require Import Model.ProcOutcome.
From Coq Require Import Lia.

Lemma collect_resolved msgs code : collect msgs code <> Pending.
Proof.
  unfold collect. destruct msgs as [|m1 [|m2 r]].
  - destruct (- code =? 15); discriminate.
  - destruct m1; destruct (- code =? 15); discriminate.
  - destruct m1; destruct m2; discriminate.
Qed.

Lemma future_always_resolved g : parent_future g <> Pending.
Proof. unfold parent_future. destruct (child_run g) as [msgs code]. apply collect_resolved. Qed.

Lemma accessors_agree g :
  match parent_future g with
  | FResult v => acc_result (parent_future g) = Returns v /\ acc_join (parent_future g) = Returns PNone
                 /\ acc_exception (parent_future g) = Returns PNone /\ acc_wait (parent_future g) = Returns PNone
  | FError e => acc_result (parent_future g) = Raises e /\ acc_join (parent_future g) = Raises e
                /\ acc_exception (parent_future g) = Returns e /\ acc_wait (parent_future g) = Returns PNone
  | Pending => False
  end.
Proof.
  pose proof (future_always_resolved g) as H. destruct (parent_future g); cbn; auto.
Qed.

Lemma normal_endings g :
  kill g = NoKill ->
  parent_future g =
    match how g with
    | Return v => FResult (PVal v)
    | RaiseExc e => FError (PExc e)
    | ExitNone => FResult PNone
    | ExitInt n => if n =? 0 then FResult PNone else FError (PSysExit n)
    | ExitOther => FError PSysExitOther
    | RaiseUnsendable | ReturnUnsendable => FError (POSErr (-1))
    | HardExit n => if - n =? 15 then FResult PNone else FError (POSErr (- n))
    | ReturnUnloadable e => FError (PExc e)
    end.
Proof.
  intros Hk. unfold parent_future, child_run. rewrite Hk.
  destruct (how g) as [v|e| |n| | | |n|e]; cbn; try reflexivity.
  destruct (n =? 0); reflexivity.
Qed.

Lemma silent_child_failure_is_error g :
  kill g = NoKill -> sendable (how g) = false -> (forall n, how g = HardExit n -> n <> -15) ->
  exists c, parent_future g = FError c.
Proof.
  intros Hk Hs Hn. rewrite (normal_endings g Hk). destruct (how g) as [v|e| |n| | | |n|e]; try discriminate Hs; eauto.
  destruct (- n =? 15) eqn:E; [|eauto]. exfalso. apply (Hn n eq_refl). apply Z.eqb_eq in E. lia.
Qed.

Lemma killed_before_result g :
  kill g = KillBefore \/ kill g = KillDuring ->
  parent_future g = if sig g =? 15 then FResult PNone else FError (OS_ERROR (sig g)).
Proof.
  intros [Hk|Hk]; unfold parent_future, child_run; rewrite Hk;
    destruct (child_plan (how g)) as [[m1 m2] code]; cbn;
    rewrite !Z.opp_involutive; destruct (sig g =? 15); reflexivity.
Qed.

(* both messages get out: the process reports what a thread running the same target reports *)
Lemma both_sent g :
  sendable (how g) = true -> kill g = NoKill \/ kill g = KillAfter -> parent_future g = thread_future (how g).
Proof.
  intros Hs Hk. unfold parent_future, child_run.
  destruct Hk as [-> | ->]; destruct (how g) as [v|e| |n| | | |n|e]; try discriminate Hs; cbn; try reflexivity;
    destruct (n =? 0); reflexivity.
Qed.

Lemma killed_after_sends g :
  kill g = KillAfter -> sendable (how g) = true ->
  parent_future g = parent_future {| how := how g; kill := NoKill; sig := sig g |}.
Proof. intros Hk Hs. rewrite !both_sent; auto. Qed.

Lemma thread_matches_process h :
  sendable h = true ->
  thread_future h = match parent_future {| how := h; kill := NoKill; sig := 15 |} with
                    | FResult v => FResult v | FError e => FError e | Pending => Pending end.
Proof. intros Hs. rewrite both_sent by auto. cbn [how]. now destruct (thread_future h). Qed.
