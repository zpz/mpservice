(* The ledger of the Server model holds exactly the requests in flight; hence every slot comes back, no result is dropped
   for want of an entry, and an idle server has backlog zero. *)
From MpV Require Import Lib.Conc Lib.ListFacts Model.Server Proof.ServerProof.
From Coq Require Import Lia.

(* the condition's waiters are at KWaiting, each listed once *)
Definition Wt (s : state) : Prop :=
  (forall w, In w (waiters s) -> nth_error (kp s) w = Some KWaiting) /\ NoDup (waiters s).

Lemma woken_was_waiting s w r : Wt s -> waiters s = w :: r -> nth_error (kp s) w = Some KWaiting.
Proof. intros [HW _] Hw. apply HW. rewrite Hw. now left. Qed.

Lemma waiter_pc s i pc : Wt s -> nth_error (kp s) i = Some pc -> In i (waiters s) -> pc = KWaiting.
Proof. intros [HW _] Hi Hin. rewrite (HW _ Hin) in Hi. now injection Hi. Qed.

Lemma wt_kp s s0 i pc pc' :
  Wt s -> nth_error (kp s) i = Some pc -> pc <> KWaiting -> kp s0 = kp s -> waiters s0 = waiters s ->
  Wt (set_kp s0 i pc').
Proof.
  intros HI Hi Hp Ek Ew. unfold Wt; cbn [kp waiters set_kp]. rewrite Ek, Ew. split; [|exact (proj2 HI)].
  intros w Hw. rewrite nth_error_upd_nth_other; [exact (proj1 HI _ Hw)|]. intros <-. exact (Hp (waiter_pc s i pc HI Hi Hw)).
Qed.

Lemma wt_step g s s' : Wt s -> trans g s s' -> Wt s'.
Proof.
  intros HI Ht. destruct Ht.
  - destruct He; try (eapply wt_kp; [exact HI|exact Hi|discriminate|reflexivity..]);
      pose proof HI as (HW & HN); split; cbn [kp waiters set_kp set_waiters set_lock].
    + intros w Hw. apply in_app_or in Hw as [Hw|[<-|[]]]; [|eapply nth_error_upd_nth_same; eauto].
      rewrite nth_error_upd_nth_other; [auto|]. intros <-. discriminate (waiter_pc s i KWait HI Hi Hw).
    + apply NoDup_snoc; [exact HN|]. intros Hin. discriminate (waiter_pc s i KWait HI Hi Hin).
    + intros w Hw. apply in_remove_nat in Hw as [Hw Hne]. rewrite nth_error_upd_nth_other; auto.
    + apply NoDup_filter, HN.
  - destruct He; exact HI.
  - destruct He; try exact HI. destruct HI as (HW & HN). rewrite Hw in *. inversion HN as [|? ? Hnin Hnd]; subst.
    split; cbn [kp waiters set_kp set_waiters set_np]; [|exact Hnd].
    intros w' Hw'. rewrite nth_error_upd_nth_other; [apply HW; now right|]. intros <-. contradiction.
  - destruct He; exact HI.
  - destruct He; exact HI.
Qed.

Lemma wt_run g sched : Wt (run step g (init g) sched).
Proof. apply reach; [apply wt_step|]. split; [intros w []|constructor]. Qed.

Definition is_req (u : nat) (m : qmsg) : bool := match m with Req v => Nat.eqb u v | Stop => false end.
Definition is_hold (u : nat) (p : bpc) : bool := match p with BHold v => Nat.eqb u v | _ => false end.
Definition is_ans (u : nat) (m : omsg) : bool := match m with Ans v _ => Nat.eqb u v | OStop => false end.

(* = ListFacts.count (convertible): the proofs [change @cnt with @count] to use the count_* lemmas *)
Definition cnt {A} (f : A -> bool) (l : list A) : nat := length (filter f l).
Definition c_kput (u : nat) (s : state) : nat := match nth_error (kp s) u with Some KPut => 1 | _ => 0 end.
Definition c_gpop (u : nat) (p : gpc) : nat := match p with GPop v _ => if Nat.eqb u v then 1 else 0 | _ => 0 end.

(* where a request can be between acceptance and the emergence of its result *)
Definition inflight (u : nat) (s : state) : nat :=
  c_kput u s + cnt (is_req u) (q_in s) + cnt (is_hold u) (bp s) + cnt (is_ans u) (q_out s) + c_gpop u (gp s).
Definition led (u : nat) (s : state) : nat := cnt (Nat.eqb u) (ledger s).

(* program points of a caller whose request has been entered into the ledger *)
Definition passed (pc : kpc) : bool :=
  match pc with
  | KPut | KUnlock None | KWaitRes | KCancel | KDone (Answered _) | KDone TimedOut => true
  | _ => false
  end.
Definition passed_at (u : nat) (s : state) : bool :=
  match nth_error (kp s) u with Some pc => passed pc | None => false end.

(* every transition leaves both sides alone, moves u from one place of [inflight] to the next, or changes both sides at
   once: the entry is made at k_set and goes at g_pop *)
Definition InvL (s : state) : Prop :=
  (forall u, led u s = inflight u s /\ led u s <= if passed_at u s then 1 else 0) /\ dropped_results s = [].

Lemma invl_init g : InvL (init g).
Proof.
  split; [|reflexivity]. intros u. unfold led, inflight, c_kput, passed_at, init; cbn [kp q_in bp q_out gp ledger].
  change @cnt with @count. rewrite !count_nil, (count_repeat_false _ BGet) by reflexivity.
  destruct (nth_error (repeat KLock _) u) as [pc|] eqn:E; [apply nth_error_repeat_inv in E; subst pc|]; cbn; lia.
Qed.

Lemma mem_nat_count u l : mem_nat u l = true <-> 0 < count (Nat.eqb u) l.
Proof.
  unfold mem_nat. rewrite existsb_exists. split.
  - intros (x & Hin & Hx). exact (count_pos_in _ l x Hin Hx).
  - intros H. apply count_pos_nth in H as (j & x & Hj & Hx). eauto using nth_error_In.
Qed.

Lemma popped_in_ledger s u y : InvL s -> gp s = GPop u y -> mem_nat u (ledger s) = true.
Proof.
  intros [HU _] Hg. apply mem_nat_count. destruct (HU u) as [H _]. revert H. unfold led, inflight. change @cnt with @count.
  rewrite Hg. cbn [c_gpop]. rewrite Nat.eqb_refl. lia.
Qed.

(* the third case says "neither pc is KPut" and "passed does not go back" in the shape c_kput and the bound take in the goal
   of invl_step, so that lia meets the same atoms *)
Lemma kedge_flight g s i kc pc pc' s0 : kedge g s i kc pc pc' s0 ->
  bp s0 = bp s /\ q_out s0 = q_out s /\ gp s0 = gp s /\
  ((pc = KSet /\ pc' = KPut /\ ledger s0 = ledger s ++ [i] /\ q_in s0 = q_in s)
   \/ (pc = KPut /\ pc' = KUnlock None /\ ledger s0 = ledger s /\ q_in s0 = q_in s ++ [Req i])
   \/ (match pc with KPut => 1 | _ => 0 end = 0 /\ match pc' with KPut => 1 | _ => 0 end = 0 /\
       (if passed pc then 1 else 0) <= (if passed pc' then 1 else 0) /\ ledger s0 = ledger s /\ q_in s0 = q_in s)).
Proof. destruct 1; cbn; auto 12. Qed.

Lemma invl_step g s s' : Wt s -> InvL s -> trans g s s' -> InvL s'.
Proof.
  intros HW HL Ht. pose proof HL as (HU & HD). pose proof (fun u y => popped_in_ledger s u y HL) as Hpop.
  assert (HD' : dropped_results s' = []).
  { (* only g_drop adds a dropped result, and it cannot happen *)
    destruct Ht; destruct He; try exact HD. rewrite (Hpop _ _ Hg) in Hm. discriminate. }
  split; [|exact HD']. intros v. specialize (HU v). revert HU. unfold led, inflight. change @cnt with @count.
  destruct Ht.
  - pose proof (kedge_kp _ _ _ _ _ _ _ He) as Ek. apply kedge_flight in He. destruct He as (Eb & Eo & Eg & He).
    unfold c_kput, passed_at. cbn [kp q_in bp q_out gp ledger set_kp]. rewrite Ek, Eb, Eo, Eg.
    destruct He as [(-> & -> & -> & ->)|[(-> & -> & -> & ->)|(Hp & Hp' & Hpp & -> & ->)]].
    all: destruct (Nat.eq_dec v i) as [->|Hne];
      [rewrite (nth_error_upd_nth_same _ _ _ _ Hi), Hi|rewrite nth_error_upd_nth_other by auto];
      rewrite ?count_snoc; cbn; rewrite ?Nat.eqb_refl, ?(proj2 (Nat.eqb_neq v i)) by exact Hne;
      first [exact (fun H => H)|lia].
  - destruct He; try (rewrite (Hpop _ _ Hg) in Hm; discriminate);
      change (c_kput v _) with (c_kput v s); change (passed_at v _) with (passed_at v s);
      cbn [q_in bp q_out gp ledger set_gp set_qout set_ledger set_futs set_qn]; rewrite Hg, ?Hq, ?count_cons;
      cbn [c_gpop is_ans]; try exact (fun H => H); try lia.
    (* g_pop of v's entry: it was the only one *)
    rewrite count_remove_nat. destruct (Nat.eqb v u); [destruct (passed_at v s)|]; lia.
  - destruct He; try exact (fun H => H). pose proof (woken_was_waiting s w r HW Hw) as Hk.
    unfold c_kput, passed_at. cbn [kp q_in bp q_out gp ledger set_np set_kp set_waiters].
    destruct (Nat.eq_dec v w) as [->|Hne];
      [rewrite (nth_error_upd_nth_same _ _ _ _ Hk), Hk|rewrite nth_error_upd_nth_other by auto]; cbn; lia.
  - pose proof (count_upd_nth (is_hold v) j pc' (bp s) pc Hj) as Hc. change @upd_nth with @set_nth in Hc. revert Hc.
    destruct He; change (c_kput v _) with (c_kput v s); change (passed_at v _) with (passed_at v s);
      cbn [q_in bp q_out gp ledger set_bp set_qin set_qout]; rewrite ?Hq, ?count_cons, ?count_snoc;
      cbn [is_hold is_req is_ans]; lia.
  - destruct He; change (c_kput v _) with (c_kput v s); change (passed_at v _) with (passed_at v s);
      cbn [q_in bp q_out gp ledger set_mp set_qin set_qout]; rewrite ?count_snoc; cbn [is_req is_ans];
      first [exact (fun H => H)|lia].
Qed.

Lemma invl_run g sched : InvL (run step g (init g) sched).
Proof. apply (reach_under g Wt); [apply wt_run|apply invl_step|apply invl_init]. Qed.

Lemma ledger_is_in_flight g sched u :
  let s := run step g (init g) sched in
  led u s = inflight u s /\ inflight u s <= 1.
Proof. cbv zeta. destruct (invl_run g sched) as [H _]. destruct (H u) as [H1 H2]. destruct (passed_at u _); lia. Qed.

Lemma nothing_before_entry g sched i pc :
  let s := run step g (init g) sched in
  nth_error (kp s) i = Some pc -> passed pc = false -> led i s = 0 /\ inflight i s = 0.
Proof.
  cbv zeta. intros Hi Hp. destruct (invl_run g sched) as [H _]. destruct (H i) as [H1 H2].
  unfold passed_at in H2. rewrite Hi, Hp in H2. lia.
Qed.

Lemma no_result_dropped g sched : dropped_results (run step g (init g) sched) = [].
Proof. exact (proj2 (invl_run g sched)). Qed.

(* idle: nothing queued, no worker holding a request, the gather thread waiting *)
Definition quiet (s : state) : Prop :=
  (forall u, c_kput u s = 0) /\ (forall u, cnt (is_req u) (q_in s) = 0) /\ (forall u, cnt (is_hold u) (bp s) = 0)
  /\ (forall u, cnt (is_ans u) (q_out s) = 0) /\ (forall u, c_gpop u (gp s) = 0).

Lemma count_zero_nil l : (forall u, count (Nat.eqb u) l = 0) -> l = [].
Proof. destruct l as [|h t]; [reflexivity|]. intros H. specialize (H h). rewrite count_cons, Nat.eqb_refl in H. lia. Qed.

Lemma idle_backlog_zero g sched :
  quiet (run step g (init g) sched) -> ledger (run step g (init g) sched) = [].
Proof.
  intros (Q1 & Q2 & Q3 & Q4 & Q5). apply count_zero_nil. intros u.
  change (led u (run step g (init g) sched) = 0). destruct (ledger_is_in_flight g sched u) as [-> _].
  unfold inflight. now rewrite Q1, Q2, Q3, Q4, Q5.
Qed.
