(* C13. In any variant of the code the server's count of an object is its references plus the increments
   that forgotten references left behind; the code as it is now forgets nothing. *)
From MpV Require Import Lib.ListFacts Model.Refcount.
From Coq Require Import Lia.

(* the code as it is, both repairs in; used in the statements of Props/C13.v *)
Definition now := {| adopt := true; exitfin := true |}.

Lemma length_partition {A} (f : A -> bool) l : length l = length (filter f l) + length (filter (fun x => negb (f x)) l).
Proof. induction l as [|a l IH]; cbn; [reflexivity|]. destruct (f a); cbn; lia. Qed.

Lemma fold_left_inv {A B} (f : A -> B -> A) (P : A -> Prop) l :
  (forall a b, In b l -> P a -> P (f a b)) -> forall a, P a -> P (fold_left f l a).
Proof. induction l as [|b l IH]; cbn; intros Hf a Ha; [exact Ha|]. apply IH; auto. Qed.

(* in the form [count_occ] unfolds to: one [destruct (Nat.eq_dec _ _)] decides both *)
Definition hit (x : nat) (r : ref) : nat := if Nat.eq_dec (r_id r) x then 1 else 0.
(* so that [cbn] leaves [nrefs] to the equations below *)
Local Arguments nrefs : simpl never.

Lemma nrefs_cons x r l : nrefs x (r :: l) = hit x r + nrefs x l.
Proof.
  unfold nrefs, hit. cbn. destruct (Nat.eqb_spec (r_id r) x), (Nat.eq_dec (r_id r) x); (reflexivity || contradiction).
Qed.

Lemma nrefs_snoc x l r : nrefs x (l ++ [r]) = nrefs x l + hit x r.
Proof. induction l as [|a l IH]; rewrite ?app_nil_l, <- ?app_comm_cons, !nrefs_cons, ?IH; cbn; lia. Qed.

Lemma nrefs_remove x t l :
  nrefs x l = nrefs x (remove_ref t l) + match find_ref t l with Some r => hit x r | None => 0 end.
Proof.
  induction l as [|a l IH]; cbn; [reflexivity|]. destruct (Nat.eqb (r_tag a) t); rewrite !nrefs_cons; lia.
Qed.

(* for the destruction of container c: what it holds becomes pending decrements *)
Lemma nrefs_held x c l :
  nrefs x l = count_occ Nat.eq_dec (map r_id (filter (held_by c) l)) x + nrefs x (filter (fun r => negb (held_by c r)) l).
Proof.
  induction l as [|a l IH]; cbn; [reflexivity|]. rewrite nrefs_cons, IH.
  destruct (held_by c a); cbn; rewrite ?nrefs_cons; unfold hit; destruct (Nat.eq_dec (r_id a) x); lia.
Qed.

Lemma get_cnt_set {s x c} (H : get_cnt s x = Some c) v rs e y :
  get_cnt {| cnt := set_nth x v (cnt s); refs := rs; errors := e |} y = if Nat.eq_dec x y then v else get_cnt s y.
Proof.
  unfold get_cnt in *. apply nth_upd_nth. destruct (Nat.lt_ge_cases x (length (cnt s))); [assumption|].
  rewrite nth_overflow in H by assumption. discriminate.
Qed.

(* count = references + pending decrements (work) + increments left behind by forgotten references (L) *)
Definition cnt_ok (L : nat -> nat) (s : state) (work : list nat) : Prop :=
  forall x, match get_cnt s x with
            | Some n => n = nrefs x (refs s) + count_occ Nat.eq_dec work x + L x /\ 0 < n
            | None => nrefs x (refs s) = 0 /\ count_occ Nat.eq_dec work x = 0 /\ L x = 0
            end.

Lemma drain_ok L : forall fuel s work,
  cnt_ok L s work -> length work + length (refs s) < fuel -> cnt_ok L (drain fuel s work) [].
Proof.
  induction fuel as [|f IH]; intros s [|x w] H Hf; cbn [drain]; [lia|lia|exact H|].
  pose proof (H x) as Hx. rewrite count_occ_cons_eq in Hx by reflexivity.
  destruct (get_cnt s x) as [[|[|n]]|] eqn:Ec; [lia| | |lia].
  - (* the count reaches zero: the proxies the object holds are finalized *)
    apply IH.
    + intros y. specialize (H y). rewrite (get_cnt_set Ec). cbn [refs count_occ] in *.
      rewrite count_occ_app. rewrite (nrefs_held y x) in H.
      destruct (Nat.eq_dec x y) as [<-|]; [rewrite Ec in H|destruct (get_cnt s y)]; lia.
    + (* the fuel lasts: what joins the work list leaves the references *)
      cbn [refs]. rewrite app_length, map_length. pose proof (length_partition (held_by x) (refs s)). cbn [length] in Hf. lia.
  - (* one reference fewer, the object lives on *)
    apply IH; [|cbn [refs length] in *; lia].
    intros y. specialize (H y). rewrite (get_cnt_set Ec). cbn [refs count_occ] in *.
    destruct (Nat.eq_dec x y) as [<-|]; [rewrite Ec in H|destruct (get_cnt s y)]; lia.
Qed.

(* A proxy without a finalizer (a process argument unpickled by the code before the repair) exists only in the variant
   that does not adopt. *)
Definition owns (g : cfg) (h : holder) : Prop := match h with HProc _ false => adopt g = false | _ => True end.

Definition ok (g : cfg) (L : nat -> nat) (s : state) : Prop :=
  cnt_ok L s [] /\ Forall (fun r => owns g (r_h r)) (refs s).

Lemma remove_ref_incl t l : incl (remove_ref t l) l.
Proof.
  induction l as [|a l IH]; cbn; [apply incl_refl|].
  destruct (Nat.eqb (r_tag a) t); [apply incl_tl, incl_refl|apply incl_cons; [now left|apply incl_tl, IH]].
Qed.

Lemma drain_incl : forall fuel s work, incl (refs (drain fuel s work)) (refs s).
Proof.
  induction fuel as [|f IH]; intros s [|x w]; cbn [drain]; try apply incl_refl.
  destruct (get_cnt s x) as [[|[|n]]|]; (eapply incl_tran; [apply IH|]); cbn [refs]; auto using incl_refl, incl_filter.
Qed.

Lemma acquire_ok g L s t h x : owns g h -> ok g L s -> ok g L (acquire s t h x).
Proof.
  intros Ho [H F]. unfold acquire. destruct (get_cnt s x) as [n|] eqn:Ec; [|now split].
  split; [|now apply Forall_snoc]. intros y. specialize (H y). rewrite (get_cnt_set Ec). cbn [refs count_occ] in *.
  rewrite nrefs_snoc. unfold hit. cbn [r_id].
  destruct (Nat.eq_dec x y) as [<-|]; [rewrite Ec in H|destruct (get_cnt s y)]; lia.
Qed.

Lemma release_ok g L s t : ok g L s -> ok g L (release s t).
Proof.
  intros [H F]. unfold release. destruct (find_ref t (refs s)) as [r|] eqn:Ef; [|now split]. split.
  - apply drain_ok; [|cbn; lia]. intros y. specialize (H y). unfold get_cnt in *. cbn [cnt refs count_occ] in *.
    rewrite (nrefs_remove y t), Ef in H. unfold hit in H. destruct (nth y (cnt s) None), (Nat.eq_dec (r_id r) y); lia.
  - eapply incl_Forall, F. eapply incl_tran; [apply drain_incl|apply remove_ref_incl].
Qed.

Lemma move_ok g L s t t' h : owns g h -> ok g L s -> ok g L (move s t t' h).
Proof.
  intros Ho [H F]. unfold move. destruct (find_ref t (refs s)) as [r|] eqn:Ef; [|now split]. split.
  - intros y. specialize (H y). unfold get_cnt in *. cbn [cnt refs] in *.
    rewrite nrefs_snoc. rewrite (nrefs_remove y t), Ef in H. unfold hit in *. cbn [r_id]. destruct (nth y (cnt s) None); lia.
  - apply Forall_snoc; [|exact Ho]. exact (incl_Forall (remove_ref_incl t _) F).
Qed.

Lemma bad_ok L s : cnt_ok L s [] -> cnt_ok L (bad s) [].
Proof. intros H. exact H. Qed.

Lemma new_ok g L s t h : owns g h -> ok g L s ->
  ok g L {| cnt := cnt s ++ [Some 1]; refs := refs s ++ [{| r_tag := t; r_h := h; r_id := length (cnt s) |}]; errors := errors s |}.
Proof.
  intros Ho [H F]. split; [|now apply Forall_snoc].
  intros y. specialize (H y). unfold get_cnt in *. cbn [cnt refs count_occ] in *.
  rewrite nth_snoc, nrefs_snoc. unfold hit. cbn [r_id].
  destruct (Nat.eq_dec (length (cnt s)) y) as [<-|]; [rewrite nth_overflow in H by lia|destruct (nth y (cnt s) None)]; lia.
Qed.

(* In any variant the state is [ok] for some leak; the code as it is now adds nothing to the leak [L0] it started from. *)
Definition sound (g : cfg) (L0 : nat -> nat) (s : state) : Prop := exists L, ok g L s /\ (g = now -> L = L0).

(* forgetting a reference leaves its increment behind for ever; the code as it is now never does *)
Lemma forget_ok g L0 s t : g <> now -> sound g L0 s -> sound g L0 (forget s t).
Proof.
  intros Hg (L & [H F] & _). exists (fun y => L y + match find_ref t (refs s) with Some r => hit y r | None => 0 end).
  split; [split|contradiction]; [|exact (incl_Forall (remove_ref_incl t _) F)].
  intros y. specialize (H y). unfold get_cnt, forget in *. cbn [cnt refs] in *.
  rewrite (nrefs_remove y t) in H. destruct (nth y (cnt s) None); lia.
Qed.

Lemma drop_ref_ok g L0 s r : owns g (r_h r) -> is_proc (r_h r) = true -> sound g L0 s -> sound g L0 (drop_ref s r).
Proof.
  unfold drop_ref. destruct (r_h r) as [p [|]| | |]; cbn; try discriminate; intros Ho _ Hs.
  - destruct Hs as (L & H & E). exists L. auto using release_ok.
  - apply forget_ok; [|exact Hs]. intros ->. discriminate.
Qed.

Lemma find_ref_in t l r : find_ref t l = Some r -> In r l.
Proof.
  induction l as [|a l IH]; cbn; [discriminate|].
  destruct (Nat.eqb (r_tag a) t); [intros [= ->]; now left|right; auto].
Qed.

Lemma sound_owns g L0 s r : sound g L0 s -> In r (refs s) -> owns g (r_h r).
Proof. intros (L & [_ F] & _). rewrite Forall_forall in F. apply F. Qed.

Lemma sound_drop g L0 s k : sound g L0 s -> sound g L0 (step g s (ODrop k)).
Proof.
  intros H. cbn [step]. destruct (find_ref k (refs s)) as [r|] eqn:Ef; [|exact H].
  destruct (is_proc (r_h r)) eqn:Ep; [|exact H].
  apply drop_ref_ok; [eapply sound_owns, find_ref_in, Ef; exact H|exact Ep|exact H].
Qed.

Lemma sound_exit g L0 s p : sound g L0 s -> sound g L0 (step g s (OExit p)).
Proof.
  intros H. cbn [step]. apply fold_left_inv; [|exact H]. intros s' r [Hin Hp]%filter_In H'.
  destruct (exitfin g) eqn:Ex; [|apply forget_ok; [intros ->; discriminate|exact H']].
  apply drop_ref_ok; [eapply sound_owns, Hin; exact H| |exact H']. unfold proc_of in Hp. now destruct (r_h r).
Qed.

(* the proxy that OUnpickle makes of an inherited pickle has a finalizer or not as the variant has it *)
Lemma owns_adopt g p : owns g (HProc p (adopt g)).
Proof. cbn. now destruct (adopt g). Qed.

(* Under its guards every other operation is a chain of acquire, release and move (six links in OCreate) from s
   or from s with a new slot; a guard that fails leaves [bad s]. Every other holder is written out in [step]:
   [owns] computes. *)
Local Hint Resolve acquire_ok release_ok move_ok new_ok owns_adopt : refcount.
Local Hint Extern 0 (owns _ _) => exact I : refcount.

Lemma sound_step g L0 s o : sound g L0 s -> sound g L0 (step g s o).
Proof.
  intros Hs. destruct o; auto using sound_drop, sound_exit.
  all: destruct Hs as (L & H & E); exists L; split; [|exact E]; cbn [step];
    repeat match goal with |- context [match ?x with _ => _ end] => destruct x end; auto 7 with refcount.
Qed.

Lemma sound_run g ops : sound g (fun _ => 0) (run g ops).
Proof.
  unfold run. apply fold_left_inv; [intros; now apply sound_step|]. exists (fun _ => 0).
  repeat split; [|constructor]. intros [|x]; cbn; auto.
Qed.

Lemma referenced_is_alive g ops x : 0 < nrefs x (refs (run g ops)) -> alive (run g ops) x = true.
Proof.
  intros Hn. destruct (sound_run g ops) as (L & [H _] & _). specialize (H x). unfold alive.
  destruct (get_cnt (run g ops) x); [reflexivity|lia].
Qed.

Lemma count_is_references ops x :
  match get_cnt (run now ops) x with
  | Some n => n = nrefs x (refs (run now ops)) /\ 0 < n
  | None => nrefs x (refs (run now ops)) = 0
  end.
Proof.
  destruct (sound_run now ops) as (L & [H _] & E). specialize (H x). rewrite (E eq_refl) in H. cbn [count_occ] in H.
  destruct (get_cnt (run now ops) x); lia.
Qed.

Lemma destroyed_when_unreferenced ops x : nrefs x (refs (run now ops)) = 0 -> alive (run now ops) x = false.
Proof.
  intros Hn. pose proof (count_is_references ops x) as H. unfold alive.
  destruct (get_cnt (run now ops) x); [lia|reflexivity].
Qed.
