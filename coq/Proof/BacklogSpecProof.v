(* Model/BacklogSpec.v: an accepted history never has more than [cap] requests in flight, after any prefix; the counters
   add up (in flight = accepted - released), so a history that ends with backlog 0 has given every slot back. *)
From MpV Require Import Model.BacklogSpec.
From Coq Require Import Lia.

Definition Good (cap : nat) (s : st) : Prop :=
  backlog s <= cap /\ accepted s = released s + backlog s.

Lemma good_init cap : Good cap init.
Proof. unfold Good, init; simpl; lia. Qed.

Lemma good_step cap s e s' : Good cap s -> step cap s e = inl s' -> Good cap s'.
Proof.
  unfold Good, step. intros H Hs.
  (* the three guards of [step]: the branch not taken contradicts Hs *)
  destruct e as [| |n]; [destruct (Nat.ltb_spec (backlog s) cap) | destruct (backlog s) eqn:Hb | destruct (n =? backlog s)];
    try discriminate; injection Hs as <-; [cbn [backlog accepted released]; lia..|exact H].
Qed.

Lemma good_accept cap evs : forall s i sf, Good cap s -> accept cap s i evs = inl sf -> Good cap sf.
Proof.
  induction evs as [|e r IH]; cbn; intros s i sf Hg Ha; [now injection Ha as <-|].
  destruct (step cap s e) as [s'|] eqn:Hs; [|discriminate]. exact (IH s' _ sf (good_step cap s e s' Hg Hs) Ha).
Qed.

Lemma accept_firstn cap evs : forall k s i sf, accept cap s i evs = inl sf -> exists sk, accept cap s i (firstn k evs) = inl sk.
Proof.
  induction evs as [|e r IH]; intros [|k] s i sf Ha; cbn; eauto. cbn in Ha.
  destruct (step cap s e); [exact (IH k _ _ sf Ha)|discriminate].
Qed.

Theorem accepted_history_bounded cap evs sf :
  accept cap init 0 evs = inl sf ->
  forall k, exists sk, accept cap init 0 (firstn k evs) = inl sk /\ backlog sk <= cap /\
                       accepted sk = released sk + backlog sk.
Proof.
  intros Ha k. destruct (accept_firstn cap evs k _ _ _ Ha) as [sk Hk]. exists sk. split; [exact Hk|].
  exact (good_accept cap _ _ _ _ (good_init cap) Hk).
Qed.

Theorem idle_means_all_slots_back cap evs sf :
  accept cap init 0 evs = inl sf -> backlog sf = 0 -> accepted sf = released sf.
Proof. intros Ha H0. destruct (good_accept cap evs _ _ _ (good_init cap) Ha) as [_ H]. lia. Qed.

Theorem refusal_is_real cap s e k :
  step cap s e = inr k ->
  match k with
  | Overflow => e = Acc /\ cap <= backlog s
  | Impossible => e = Rel /\ backlog s = 0
  | Inconsistent => exists n, e = Len n /\ n <> backlog s
  end.
Proof.
  unfold step. intros Hs.
  (* the branch taken is the refusal named, and its guard is the hypothesis the spec lemma leaves *)
  destruct e as [| |n];
    [destruct (Nat.ltb_spec (backlog s) cap) | destruct (backlog s) eqn:Hb | destruct (Nat.eqb_spec n (backlog s))];
    try discriminate; injection Hs as <-; eauto.
Qed.
