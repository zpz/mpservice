(* Model/Buffer.v, C08 / C05: the one invariant that holds whatever the source does; read off it, the look-ahead bound and
   "closed => worker finished". *)
From MpV Require Import Lib.Tac Lib.Conc Model.Buffer.
Open Scope nat_scope.

Fixpoint ndata (l : list item) : nat :=
  match l with
  | [] => 0
  | Data _ :: r => S (ndata r)
  | _ :: r => ndata r
  end.

Lemma ndata_app a b : ndata (a ++ b) = ndata a + ndata b.
Proof. induction a as [|[x| | |e] a IH]; cbn; lia. Qed.

Lemma ndata_le l : ndata l <= length l.
Proof. induction l as [|[x| | |e] l IH]; cbn; lia. Qed.

Definition held_w (s : state) : nat := match wp s with WChk _ | WPut _ => 1 | _ => 0 end.
Definition held_c (s : state) : nat := match cp s with CYield _ => 1 | _ => 0 end.

(* every pulled element is in exactly one place; the worker exists only between _start() and the closing join *)
Record Inv (g : cfg) (s : state) : Prop := {
  b_count : pulled s = ndata (q s) + held_w s + held_c s + length (received s) + dropped s;
  b_bound : length (q s) <= maxsize g;
  b_ends : match cp s with
           | CStart => wp s = WIdle /\ q s = []
           | CDone _ => w_finished s = true
           | _ => match wp s with WIdle => False | _ => True end
           end
}.

Lemma inv_init g : Inv g (init g).
Proof. constructor; cbn; auto using Nat.le_0_l. Qed.

Lemma inv_step g s l s' e : Inv g s -> step g s l = Some (s', e) -> Inv g s'.
Proof.
  intros [Hcount Hbound Hends] Hs. unfold held_w, held_c, w_finished in *.
  destruct s as [w c qq st rs pu re dr], l.
  all: unfold step, step_w, step_c, w_put, c_pop, full, upd_w, upd_c, after_recv in Hs; cbn in Hs; step_cases Hs.
  (* _start(): no worker yet, so it holds nothing *)
  all: cbn in Hends; try match type of Hends with _ /\ _ => destruct Hends as [-> ->] end.
  all: constructor; unfold held_w, held_c, w_finished; cbn in *; rewrite ?app_length, ?ndata_app; cbn; bool_to_prop;
    [first [assumption|lia]|first [assumption|lia]|trivial].
  (* a worker that moves is neither idle nor finished *)
  all: destruct c; easy.
Qed.

Lemma inv_run g sched : Inv g (run step g (init g) sched).
Proof. apply (Conc.inv_run step g (Inv g)); [exact (inv_step g)|apply inv_init]. Qed.

Lemma buffer_lookahead g sched :
  ahead (run step g (init g) sched) <= maxsize g + 2.
Proof.
  pose proof (inv_run g sched) as [Hcount Hbound _]. set (s := run step g (init g) sched) in *.
  unfold ahead. pose proof (ndata_le (q s)).
  assert (held_w s <= 1) by (unfold held_w; destruct (wp s); lia).
  assert (held_c s <= 1) by (unfold held_c; destruct (cp s); lia).
  lia.
Qed.

Lemma closed_means_worker_gone g sched o :
  cp (run step g (init g) sched) = CDone o -> w_finished (run step g (init g) sched) = true.
Proof. intros H. pose proof (b_ends _ _ (inv_run g sched)) as HI. now rewrite H in HI. Qed.
