(* Stopping a two-stage sequence front to back never wedges (one worker per stage), although the pipe between the stages
   cannot hold a result. Both hypotheses are needed: Props/C11.v. *)
From MpV Require Import Lib.Tac Lib.Conc Lib.ListFacts Model.SeqStop.
Open Scope nat_scope.

(* the only worker of stage 1 (j_len) *)
Definition a0 (s : state) : wpc := nth 0 (ap s) WDone.
Definition a_past (p : wpc) : bool := match p with WRebroadcast | WFwd | WDone => true | _ => false end.
Definition b_stopping (p : bpc) : bool := match p with BRebroadcast | BFwd | BDone => true | _ => false end.
Definition o_done (p : opc) : bool := match p with ODone => true | OGet => false end.
Definition m_started (p : mpc) : bool := match p with MPutA => false | _ => true end.
Definition m_late (p : mpc) : bool := match p with MJoinB | MDone => true | _ => false end.

(* never lost again: nothing but its reader taking it makes a marker leave a queue *)
Definition arrived (q : list msg) (taken : bool) : Prop := In Stop q \/ taken = true.

Lemma arrived_taken q : arrived q true.
Proof. now right. Qed.
Lemma arrived_put_stop q t : arrived (q ++ [Stop]) t.
Proof. left. apply in_elt. Qed.
Lemma arrived_put q t m : arrived q t -> arrived (q ++ [m]) t.
Proof. intros [H|H]; [left; apply in_snoc, H|now right]. Qed.
Lemma arrived_take_item x q t : arrived (Item x :: q) t <-> arrived q t.
Proof. unfold arrived; cbn. intuition discriminate. Qed.
Lemma arrived_head_stop q t : arrived (Stop :: q) t.
Proof. left. now left. Qed.
Lemma arrived_nil : ~ arrived [] false.
Proof. intros [[]|H]; discriminate H. Qed.

(* j_tok0/1/2: a marker that has been sent into q0/q1/q2 has arrived there. j_order: once a marker is in the pipe (or B
   has taken it) the stage-1 worker is done - the marker is the last thing it writes, and M adds its own only after
   joining it; this is where nw = 1 and reverse = false are needed. j_mdone, j_joined_a: M's joins have returned only from
   finished threads. *)
Record J (s : state) : Prop := {
  j_len : length (ap s) = 1;
  j_m : match mp s with MJoinA i => i = 0 | _ => True end;
  j_tok0 : m_started (mp s) = true -> arrived (q0 s) (a_past (a0 s));
  j_order : arrived (q1 s) (b_stopping (bp s)) -> a0 s = WDone;
  j_tok1 : m_late (mp s) = true -> arrived (q1 s) (b_stopping (bp s));
  j_tok2 : bp s = BDone -> arrived (q2 s) (o_done (op s));
  j_mdone : mp s = MDone -> bp s = BDone;
  j_joined_a : mp s = MPutB -> a0 s = WDone
}.

Section Forward.
Context (g : cfg) (Hn : nw g = 1) (Hr : reverse g = false).

Lemma j_init : J (init g).
Proof.
  unfold init, first_m. rewrite Hn, Hr. constructor; cbn; auto; try discriminate; try congruence.
  intros H. elim (arrived_nil H).
Qed.

Local Hint Resolve arrived_taken arrived_put_stop arrived_put arrived_head_stop : arr.
Local Hint Resolve -> arrived_take_item : arr.
Local Hint Resolve <- arrived_take_item : arr.

(* every clause of J in the new state is the same clause of the old one, moved along by a fact about [arrived], or is
   made true by the move itself. The hints: a put keeps it (arrived_put) and the marker's put makes it
   (arrived_put_stop); taking an item keeps it, both ways (arrived_take_item); taking the marker makes it
   (arrived_taken), and a marker at the head has arrived (arrived_head_stop). *)
Ltac j_cases Hs :=
  step_cases Hs; constructor; unfold a0;
  cbn [mp ap bp op q0 q1 q2 nth set_nth a_past b_stopping o_done m_started m_late] in *;
  intros; eauto 3 with arr; try congruence.

Lemma j_step s l s' e : J s -> step g s l = Some (s', e) -> J s'.
Proof.
  intros [Jl Jm J0 Jo J1 J2 Jd Ja] Hs.
  destruct s as [m a b o x0 x1 x2 dl]. unfold a0 in *. cbn [mp ap bp op q0 q1 q2 delivered] in *.
  destruct a as [|p [|p' a']]; try discriminate Jl. cbn [nth] in *.
  destruct l as [|i| |]; cbn [step] in Hs;
    unfold step_m, step_a, step_b, step_o, after_a, after_b, upd_m, upd_a, upd_b, set_q0, set_q1, set_q2 in Hs;
    cbn in Hs.
  - (* M switches premises of J on: a put makes the marker arrive, a join returns only from a worker that is done *)
    rewrite Hn, Hr in Hs. destruct m; cbn in Jm; subst; cbn in Hs; try discriminate Hs.
    (* S 0 <? nw g, with nw g = 1 *)
    all: rewrite ?Nat.ltb_irrefl in Hs; j_cases Hs.
  - destruct i as [|[|i]]; try discriminate Hs. cbn in Hs.
    (* a worker that moves is not done: the marker has not arrived at B, and M has not just joined the worker *)
    assert (Hp : p <> WDone) by (intros ->; discriminate Hs).
    assert (Hma : m <> MPutB) by auto.
    assert (Hna : ~ arrived x1 (b_stopping b)) by (intros H; elim Hp; auto).
    j_cases Hs.
    (* the result handed to the waiting reader is not a marker *)
    elim Hna. eauto with arr.
  - assert (Hb : b <> BDone) by (intros ->; discriminate Hs).
    assert (Hm : m <> MDone) by auto.
    j_cases Hs.
  - j_cases Hs.
Qed.

Lemma j_run sched : J (run step g (init g) sched).
Proof. apply (inv_run step g J); [exact j_step|apply j_init]. Qed.

Lemma stuck_is_finished s : J s -> stuck g s = true -> finished s = true.
Proof.
  intros [Jl Jm J0 Jo J1 J2 Jd Ja] Hst.
  destruct s as [m a b o x0 x1 x2 dl]. unfold a0 in *. cbn [mp ap bp op q0 q1 q2 delivered] in *.
  destruct a as [|p [|p' a']]; try discriminate Jl. cbn [nth] in *.
  unfold stuck in Hst. rewrite Hn in Hst. cbn [seq forallb] in Hst.
  destruct (step_m g _) eqn:Em; [discriminate|]. destruct (step_b g _) eqn:Eb; [discriminate|].
  destruct (step_o g _) eqn:Eo; [discriminate|]. destruct (step_a g _ 0) eqn:Ea; [discriminate|]. clear Hst.
  unfold step_m, step_b, step_o, step_a, after_a, after_b in *. rewrite Hn, Hr in Em.
  unfold finished, all_a_done. cbn in *.
  assert (Hb : (b = BWaiting /\ x1 = []) \/ b = BDone).
  { destruct b; try discriminate Eb; auto. destruct x1 as [|[x|] r]; [auto|discriminate..]. }
  destruct m; try discriminate Em; cbn in *.
  - (* MJoinA: the worker is not done, so it is blocked itself *)
    subst. destruct p; try discriminate Ea; try discriminate Em.
    + (* in get on an empty queue: but the marker has arrived there *)
      destruct x0 as [|[x|] r]; try discriminate Ea. elim (arrived_nil (J0 eq_refl)).
    + (* in put, which needs the reader waiting on an empty pipe; a reader that is gone has had the marker *)
      destruct Hb as [[-> ->]| ->]; [discriminate Ea|]. discriminate (Jo (arrived_taken _)).
  - (* MJoinB: the marker has arrived at B, so B is not waiting on an empty pipe *)
    destruct Hb as [[-> ->]| ->]; [elim (arrived_nil (J1 eq_refl))|discriminate Em].
  - (* MDone: the marker has arrived at B, so the stage-1 worker is done (j_order); B has forwarded the marker, so the
       gather thread is not waiting on an empty queue *)
    rewrite (Jd eq_refl), (Jo (J1 eq_refl)) in *. destruct o; [|reflexivity].
    destruct x2 as [|[x|] r]; [elim (arrived_nil (J2 eq_refl))|discriminate..].
Qed.

End Forward.

Theorem sequence_stop_completes g sched :
  nw g = 1 -> reverse g = false ->
  stuck g (run step g (init g) sched) = true -> finished (run step g (init g) sched) = true.
Proof. intros Hn Hr. apply stuck_is_finished; auto. apply j_run; auto. Qed.
