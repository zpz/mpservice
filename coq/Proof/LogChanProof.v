(* Model/LogChan.v, C20: InvO - the records on their way are the records emitted, in order - for the protocol with or
   without the flush; InvF, on top of it, for the code with the flush: the whole channel is one list. *)
From MpV Require Import Lib.Tac Lib.Conc Lib.ListFacts Model.LogChan.

Definition recs (l : list msg) : list nat := flat_map (fun m => match m with Rec i => [i] | EndMark => [] end) l.
Definition is_end (m : msg) : bool := match m with EndMark => true | Rec _ => false end.

Lemma recs_app a b : recs (a ++ b) = recs a ++ recs b.
Proof. apply flat_map_app. Qed.
Lemma recs_snoc l m : recs (l ++ [m]) = recs l ++ match m with Rec i => [i] | EndMark => [] end.
Proof. rewrite recs_app. destruct m; cbn; now rewrite ?app_nil_r. Qed.
Lemma recs_map_rec l : recs (map Rec l) = l.
Proof. induction l as [|i l IH]; cbn; [reflexivity|f_equal; exact IH]. Qed.

Definition emitted (g : cfg) (s : state) : nat := match cm s with CEmit k => k | _ => nrec g end.

(* only the records are spoken of: without the flush the parent's end marker may overtake them *)
Record InvO (g : cfg) (s : state) : Prop := {
  o_seq : recs (reads s ++ pipe s ++ cbuf s) = seq 0 (emitted g s);
  o_pbuf : recs (pbuf s) = [];
  o_handled : handled s = filter (passes g) (recs (reads s));
  o_le : emitted g s <= nrec g
}.

Lemma invo_init g : InvO g (init g).
Proof. constructor; unfold emitted; cbn; auto. lia. Qed.

(* so that [cbn] leaves [recs] and [seq] to the equations recs_app, recs_snoc, seq_S *)
Local Arguments recs : simpl never.
Local Arguments seq : simpl never.

Lemma invo_step g s l s' e : InvO g s -> step g s l = Some (s', e) -> InvO g s'.
Proof.
  intros [Hseq Hpbuf Hhandled Hle] H. unfold emitted in *.
  destruct s as [c cb pi se p pb st rd hd]; cbn in *.
  destruct l; cbn in H.
  - step_cases H; constructor; unfold emitted; cbn; auto; bool_to_prop; try lia.
    + (* the child logs record k: it goes behind everything on its way *)
      rewrite (app_assoc pi), app_assoc, recs_snoc, Hseq, seq_S. reflexivity.
    + (* ended, with the flush and without it *) now replace (nrec g) with k by lia.
    + now replace (nrec g) with k by lia.
  - (* child feeder: the head of the buffer becomes the tail of the pipe *)
    step_cases H. constructor; unfold emitted; cbn; auto.
    rewrite <- Hseq, <- app_assoc. reflexivity.
  - (* collector: what it puts into its buffer is not a record *)
    step_cases H; constructor; unfold emitted; cbn; auto.
    now rewrite recs_snoc, Hpbuf.
  - (* parent feeder: what it moves is not a record *)
    destruct pb as [|[i|] r]; try discriminate. step_cases H. constructor; unfold emitted; cbn; auto.
    rewrite 2 recs_app, recs_snoc, app_nil_r, <- !recs_app. exact Hseq.
  - (* logger thread: the head of the pipe becomes the tail of what was read *)
    destruct st, pi as [|m r]; try discriminate.
    assert (recs ((rd ++ [m]) ++ r ++ cb) = seq 0 match c with CEmit k => k | _ => nrec g end)
      by (rewrite <- Hseq, <- app_assoc; reflexivity).
    destruct m; injection H as <- <-; constructor; unfold emitted; cbn; auto; rewrite recs_snoc, ?app_nil_r; auto.
    rewrite filter_app, <- Hhandled. cbn. destruct (passes g i); now rewrite ?app_nil_r.
Qed.

Lemma invo_run g sched : InvO g (run step g (init g) sched).
Proof. apply (inv_run step g (InvO g)); [exact (invo_step g)|apply invo_init]. Qed.

Lemma handled_in_order_once g sched :
  let s := run step g (init g) sched in
  exists n, n <= nrec g /\ handled s = filter (passes g) (seq 0 n).
Proof.
  intros s. destruct (invo_run g sched) as [Hseq _ Hhandled Hle]. fold s in Hseq, Hhandled, Hle. rewrite recs_app in Hseq.
  exists (length (recs (reads s))). split.
  - apply (f_equal (@length nat)) in Hseq. rewrite app_length, seq_length in Hseq. lia.
  - rewrite Hhandled. f_equal. eapply seq_prefix, Hseq.
Qed.

Definition c_after (c : cpc) : bool := match c with CExit | CExited => true | _ => false end.
Definition c_send (c : cpc) : bool := match c with CSend => true | _ => false end.
Definition p_started (p : ppc) : bool := match p with PRecv => false | _ => true end.
Definition p_done (p : ppc) : bool := match p with PDone => true | _ => false end.

(* With the flush the collector puts the end marker only after the child's buffer has been emptied for good, so the
   whole channel is one list: the records emitted so far and then, once it has been put, the end marker. *)
Record InvF (g : cfg) (s : state) : Prop := {
  f_chan : reads s ++ pipe s ++ cbuf s ++ pbuf s
           = map Rec (seq 0 (emitted g s)) ++ (if p_done (pc s) then [EndMark] else []);
  f_sent : sent s = c_after (cm s);
  f_flushed : c_send (cm s) || c_after (cm s) = true -> cbuf s = [];
  f_started : p_started (pc s) = true -> sent s = true;
  f_pbuf : p_done (pc s) = false -> pbuf s = [];
  f_stopped : stopped s = existsb is_end (reads s)
}.

Lemma invf_init g : InvF g (init g).
Proof. constructor; cbn; auto; discriminate. Qed.

Lemma invf_done g s : InvF g s -> p_done (pc s) = true -> cbuf s = [] /\ emitted g s = nrec g.
Proof.
  intros [_ Hsent Hflushed Hstarted _ _] Hd. rewrite Hstarted in Hsent by (destruct (pc s); auto; discriminate).
  split; [apply Hflushed; rewrite <- Hsent; apply orb_true_r|]. unfold emitted. destruct (cm s); auto; discriminate.
Qed.

Section Flush.
Context (g : cfg) (HF : flush_first g = true).

Lemma invf_step s l s' e : InvO g s -> InvF g s -> step g s l = Some (s', e) -> InvF g s'.
Proof.
  intros [_ _ _ Hle] HI H. pose proof (invf_done g s HI) as Hdone. destruct HI as [Hchan Hsent Hflushed Hstarted Hpbuf Hstopped].
  unfold emitted in *.
  destruct s as [c cb pi se p pb st rd hd]; cbn in *.
  destruct l; cbn in H; try rewrite HF in H.
  - (* child: all but the channel equation is computation on program points *)
    destruct c as [k| | | |]; try discriminate H; step_cases H;
      constructor; unfold emitted; cbn in *; auto; bool_to_prop; try discriminate.
    + (* logs record k: the collector has not started, so the parent buffer is empty *)
      subst se. destruct p; try discriminate (Hstarted eq_refl). rewrite (Hpbuf eq_refl), !app_nil_r in *.
      rewrite seq_S, map_app, <- Hchan, <- !app_assoc. reflexivity.
    + (* ended: k = nrec g, since InvO bounds k *)
      now replace (nrec g) with k by lia.
  - (* child feeder: a message moves to the next segment *)
    step_cases H. constructor; unfold emitted; cbn; auto.
    + rewrite <- Hchan, <- app_assoc. reflexivity.
    + intros Hc. discriminate (Hflushed Hc).
  - (* collector: the end marker is put behind everything else *)
    step_cases H; constructor; unfold emitted; cbn in *; auto; try discriminate.
    rewrite !app_assoc in *. now rewrite Hchan, app_nil_r.
  - (* parent feeder: the end marker goes behind the last record, the child's buffer being empty *)
    step_cases H. destruct p; try discriminate (Hpbuf eq_refl).
    destruct (Hdone eq_refl) as [-> _]. constructor; unfold emitted; cbn in *; auto; try discriminate.
    rewrite <- Hchan, <- app_assoc. reflexivity.
  - (* logger thread: a message moves to the next segment, as for the child feeder *)
    destruct st, pi as [|m r]; try discriminate.
    assert (is_end m = existsb is_end (rd ++ [m])) by now rewrite existsb_snoc, <- Hstopped.
    step_cases H; constructor; unfold emitted; cbn; auto; rewrite <- Hchan, <- app_assoc; reflexivity.
Qed.

Lemma invf_run sched : InvF g (run step g (init g) sched).
Proof. apply (inv_run_under step g (InvO g) (InvF g)); [apply invo_run|exact invf_step|apply invf_init]. Qed.

(* in a list that is a run of records followed by [t], a prefix holding an end marker holds all the records *)
Lemma end_after_recs l : forall a b t,
  a ++ b = map Rec l ++ t -> existsb is_end a = true -> exists t', t' <> [] /\ a = map Rec l ++ t' /\ t = t' ++ b.
Proof.
  induction l as [|i l IH]; cbn; intros a b t H Ha.
  - exists a. repeat split; auto. intros ->. discriminate.
  - destruct a as [|m a]; [discriminate|]. injection H as -> H.
    destruct (IH _ _ _ H Ha) as (t' & Ht & -> & ->). eauto.
Qed.

Lemma stopped_all_read s :
  InvF g s -> stopped s = true -> p_done (pc s) = true /\ reads s = map Rec (seq 0 (nrec g)) ++ [EndMark].
Proof.
  intros HI Hst. pose proof (invf_done g s HI) as Hdone. destruct HI as [Hchan _ _ _ _ Hstopped]. rewrite Hst in Hstopped.
  destruct (end_after_recs _ _ _ _ Hchan (eq_sym Hstopped)) as (t' & Ht & Hr & Hb).
  destruct (p_done (pc s)), t' as [|m [|]]; try discriminate; try contradiction.
  injection Hb as <- _. destruct (Hdone eq_refl) as [_ <-]. auto.
Qed.

Lemma step_cm_none s : step g s CM = None -> cbuf s = [] -> cm s = CExited.
Proof. cbn. intros H E. rewrite E in H. break_match_hyp H; auto; discriminate. Qed.

Lemma stuck_is_finished s : 0 < pipe_cap g -> InvF g s -> stuck g s = true -> finished s = true.
Proof.
  intros Hcap HI Hst. unfold stuck in Hst.
  destruct (step g s CM) eqn:Ecm; [discriminate|]. destruct (step g s CF) eqn:Ecf; [discriminate|].
  destruct (step g s PC) eqn:Epc; [discriminate|]. destruct (step g s PF) eqn:Epf; [discriminate|].
  destruct (step g s R) eqn:Er; [discriminate|]. clear Hst.
  assert (Hstop : stopped s = true).
  { (* otherwise the pipe is empty, so both feeders have nothing left, the child has exited, the collector has put
       the end marker, and the channel equation says that the marker has been read *)
    destruct HI as [Hchan Hsent _ _ _ Hstopped]. cbn in Ecf, Epc, Epf, Er. rewrite Hstopped in *.
    destruct (existsb is_end (reads s)) eqn:Es; [reflexivity|].
    destruct (pipe s); [|destruct m; discriminate]. apply Nat.ltb_lt in Hcap. cbn in Ecf, Epf. rewrite Hcap in *.
    destruct (cbuf s) eqn:Ecb; [|discriminate]. destruct (pbuf s); [|discriminate].
    rewrite Hsent, (step_cm_none s Ecm Ecb) in Epc. destruct (pc s); try discriminate.
    cbn in Hchan. rewrite !app_nil_r in Hchan. rewrite Hchan, existsb_snoc, orb_true_r in Es. discriminate. }
  destruct (stopped_all_read s HI Hstop) as [Hd _]. destruct (invf_done g s HI Hd) as [Hcb _].
  unfold finished. rewrite (step_cm_none s Ecm Hcb). now destruct (pc s).
Qed.

End Flush.

Lemma all_records_handled g sched :
  flush_first g = true ->
  let s := run step g (init g) sched in
  stopped s = true -> handled s = expected_handled g.
Proof.
  intros HF s Hst. destruct (stopped_all_read g s (invf_run g HF sched) Hst) as [_ Hr].
  rewrite (o_handled g s (invo_run g sched)), Hr, recs_snoc, recs_map_rec, app_nil_r. reflexivity.
Qed.

Lemma no_wedge g sched :
  flush_first g = true -> 0 < pipe_cap g ->
  stuck g (run step g (init g) sched) = true -> finished (run step g (init g) sched) = true.
Proof. intros HF Hc. apply stuck_is_finished; auto using invf_run. Qed.
