(* Model/BatchWorker.v, C09. Each invariant is a law over the few components of the state it speaks of: a step that
   leaves them alone leaves the law literally as it is, and its [*_step] proof names only the steps that matter to it. *)
From MpV Require Import Lib.Tac Lib.Conc Lib.ListFacts Model.BatchWorker.
Open Scope nat_scope.
(* [cbn] leaves [good_uids g (S n)] for good_uids_S to rewrite *)
Local Arguments good_uids : simpl never.

Definition is_stop (m : msg) : bool := match m with Stop => true | _ => false end.
Definition has_stop (l : list msg) : bool := existsb is_stop l.
Definition all_stop (l : list msg) : bool := forallb is_stop l.

(* items first, stop markers last *)
Fixpoint its (l : list msg) : bool :=
  match l with
  | [] => true
  | Item _ _ :: r => its r
  | Stop :: r => all_stop r
  end.

Lemma all_stop_its l : all_stop l = true -> its l = true.
Proof. destruct l as [|[u k|] r]; cbn; intros H; auto; discriminate. Qed.

Lemma its_app_stop l : its l = true -> its (l ++ [Stop]) = true.
Proof.
  induction l as [|[u k|] r IH]; cbn [its app]; intros H; auto.
  unfold all_stop in *. now rewrite forallb_snoc, H.
Qed.

Lemma its_app_item l u k : its l = true -> has_stop l = false -> its (l ++ [Item u k]) = true.
Proof. induction l as [|[u' k'|] r IH]; cbn; intros H Hn; auto; discriminate. Qed.

Lemma its_cons m r : its (m :: r) = true -> its r = true.
Proof. destruct m; cbn; auto. apply all_stop_its. Qed.

Lemma all_stop_flat_map {B} (f : msg -> list B) l : f Stop = [] -> all_stop l = true -> flat_map f l = [].
Proof. intros Hf. induction l as [|[u k|] r IH]; cbn; intros H; auto; try discriminate. now rewrite Hf, IH. Qed.

Lemma good_from_app i a b : good_from i (a ++ b) = good_from i a ++ good_from (i + length a) b.
Proof.
  revert i; induction a as [|k a IH]; intros i; cbn.
  - now rewrite Nat.add_0_r.
  - destruct k; cbn [good_from length app]; rewrite IH, <- Nat.add_succ_comm; reflexivity.
Qed.

Lemma good_uids_S g n k :
  nth_error (reqs g) n = Some k ->
  good_uids g (S n) = good_uids g n ++ msg_good (Item (S n) k).
Proof.
  intros H. unfold good_uids. rewrite (firstn_snoc_nth _ _ _ H), good_from_app.
  rewrite firstn_length_le by (apply nth_error_lt in H; lia). destruct k; cbn; now rewrite ?app_nil_r.
Qed.

Lemma good_uids_past g n : length (reqs g) <= n -> good_uids g n = good_uids g (length (reqs g)).
Proof. intros H. unfold good_uids. now rewrite firstn_all2, firstn_all by lia. Qed.

Lemma good_from_In i ks u :
  In u (good_from i ks) -> exists j, u = S (i + j) /\ nth_error ks j = Some KGood.
Proof.
  revert i; induction ks as [|k ks IH]; intros i; cbn; [tauto|].
  assert (Hr : In u (good_from (S i) ks) -> exists j, u = S (i + j) /\ nth_error (k :: ks) j = Some KGood).
  { intros H. destruct (IH _ H) as (j & -> & Hj). exists (S j). split; [lia|exact Hj]. }
  destruct k; auto. intros [<-|H]; auto. exists 0. split; [lia|reflexivity].
Qed.

Lemma good_uids_genuine g n u : In u (good_uids g n) -> exists j, u = S j /\ nth_error (reqs g) j = Some KGood.
Proof.
  intros H. destruct (good_from_In _ _ _ H) as (j & -> & Hj). exists j. split; [reflexivity|].
  eapply nth_error_firstn_some; eauto.
Qed.

Lemma good_from_lt i ks u : In u (good_from i ks) -> i < u.
Proof. intros H. destruct (good_from_In _ _ _ H) as (j & -> & _). lia. Qed.

Lemma good_from_nodup i ks : NoDup (good_from i ks).
Proof.
  revert i; induction ks as [|k ks IH]; intros i; cbn; [constructor|].
  destruct k; auto. constructor; auto. intros H. apply good_from_lt in H. lia.
Qed.

(* [step_cases] on [H : step g s l = Some (s', e)]; the components of [s] become [n qi bf qo c b fl wk cs], and a law
   about [s'] ends as one about these. *)
Ltac worker_step H :=
  match type of H with step _ ?s _ = _ => destruct s as [n qi bf qo c b fl wk cs] end;
  unfold step, step_env, step_c, step_csilent, step_b, with_cp, with_bp, is_full, cap in H;
  cbn [env_next qin buf qout cp bp flag woken calls bsize reqs locked_check] in *;
  step_cases H; bool_to_prop; cbn in *.

Definition cur_b (b : bpc) : list nat :=
  match b with BColl l | BPutBack l | BSet l | BCall l => l | _ => [] end.
Definition cur_c (c : cpc) : list nat := match c with CProc m => msg_good m | _ => [] end.
(* the consumer takes every item it finds in the buffer, whatever its kind *)
Definition uids (l : list msg) : list nat := flat_map (fun m => match m with Item u _ => [u] | Stop => [] end) l.

(* Every genuine uid sent so far is in exactly one place, and the places read against the flow (calls made, consumer's
   hand, buffer, collector's hand, input queue) give the arrival order. *)
Definition Conserved (g : cfg) (s : state) : Prop :=
  concat (calls s) ++ cur_b (bp s) ++ uids (buf s) ++ cur_c (cp s) ++ goods (qin s) = good_uids g (env_next s).

Lemma conserved_step g s l s' e : Conserved g s -> step g s l = Some (s', e) -> Conserved g s'.
Proof.
  unfold Conserved, uids, goods. intros K H. worker_step H.
  all: try assumption.
  (* inside the worker a message moves from the head of one segment to the end of the one before *)
  all: rewrite ?flat_map_app, ?concat_snoc, <- ?app_assoc; cbn; rewrite ?app_nil_r in *; try assumption.
  - erewrite good_uids_S, <- K, <- !app_assoc by eassumption. reflexivity.
  - subst n. rewrite good_uids_past by lia. exact K.
Qed.

Lemma conserved_run g sched : Conserved g (run step g (init g) sched).
Proof. apply (inv_run step g (Conserved g) (conserved_step g)). reflexivity. Qed.

Definition batch_ok (g : cfg) (l : list nat) : Prop := 1 <= length l <= bsize g.

Definition shape_b (g : cfg) (b : bpc) : Prop :=
  match b with
  | BColl l => 1 <= length l < bsize g
  | BPutBack l | BSet l | BCall l => batch_ok g l
  | BOut _ l => 1 <= length l
  | _ => True
  end.

Definition Shape (g : cfg) (s : state) : Prop := shape_b g (bp s) /\ Forall (batch_ok g) (calls s).

Lemma shape_step g : 1 < bsize g -> forall s l s' e, Shape g s -> step g s l = Some (s', e) -> Shape g s'.
Proof.
  intros Hb s l s' e. unfold Shape. intros [Hs Hc] H. worker_step H.
  all: split; auto.
  all: unfold batch_ok in *; rewrite ?app_length; cbn [length]; try lia.
  apply Forall_snoc; [exact Hc|lia].
Qed.

Lemma shape_run g sched : 1 < bsize g -> Shape g (run step g (init g) sched).
Proof. intros Hb. apply (inv_run step g (Shape g) (shape_step g Hb)). split; constructor. Qed.

Definition c_room (c : cpc) : bool := match c with CGet | CProc _ => true | _ => false end.
Definition c_stopping (c : cpc) : bool := match c with CStop1 | CDone => true | _ => false end.
Definition c_tookstop (c : cpc) : bool := match c with CProc Stop | CStop1 | CDone => true | _ => false end.
Definition b_putback (b : bpc) : bool := match b with BPutBack _ => true | _ => false end.
Definition b_stopped (b : bpc) : bool := match b with BStop1 | BStop2 | BDone => true | _ => false end.

(* A marker taken for good (the collector puts a copy back, the consumer stops) still counts as the head of the queue it
   came from: taking it changes nothing, and [its] then says that only markers are behind it. *)
Definition held (t : bool) : list msg := if t then [Stop] else [].
Definition cq (s : state) : list msg := held (c_tookstop (cp s)) ++ qin s.
Definition bq (s : state) : list msg := held (b_stopped (bp s)) ++ buf s.

(* The queue's equation: the marker is in (or taken for good from) the input queue exactly when upstream has sent it. The
   buffer's equation: it is in (or taken for good from) the buffer, or in the consumer's hand to be put back, exactly when
   the collector has appended it. *)
Definition Marker (g : cfg) (s : state) : Prop :=
  (its (cq s) = true /\ (has_stop (cq s) = true <-> length (reqs g) < env_next s)) /\
  (its (bq s) = true /\ has_stop (bq s) || b_putback (bp s) = c_stopping (cp s)).

Lemma marker_step g s l s' e : Marker g s -> step g s l = Some (s', e) -> Marker g s'.
Proof.
  unfold Marker, cq, bq, has_stop, all_stop. intros [[Iq Q] [Ib T]] H. worker_step H.
  all: split; try (split; assumption).
  - (* Env, a request: the marker is not sent yet *)
    assert (Hn : n < length (reqs g)) by eauto using nth_error_lt.
    rewrite app_assoc, existsb_snoc, orb_false_r, Q. split; [|lia].
    apply its_app_item; [exact Iq|]. apply not_true_is_false. unfold has_stop. rewrite Q. lia.
  - (* Env, the marker *)
    rewrite app_assoc, existsb_snoc, orb_true_r. split; [apply its_app_stop, Iq|]. split; [lia|reflexivity].
  - (* CGet: a marker taken becomes the held head of [cq] *)
    match goal with |- context [held (match ?m with _ => _ end)] => destruct m end; split; assumption.
  - (* CProc, an item: the marker has not passed the collector *)
    rewrite app_assoc, existsb_snoc, orb_false_r. split; [|exact T].
    apply orb_false_elim in T as [T _]. apply its_app_item; assumption.
  - (* CProc Stop *)
    rewrite app_assoc, existsb_snoc, orb_true_r. split; [apply its_app_stop, Ib|reflexivity].
  - (* CStop1 *)
    rewrite forallb_snoc, Iq. split; [reflexivity|exact Q].
  - (* BColl, the marker *)
    rewrite orb_true_r. split; [apply all_stop_its, Ib|exact T].
  - (* BPutBack *)
    rewrite existsb_snoc, orb_true_r in *. split; [apply its_app_stop, Ib|exact T].
  - (* BStop1: the marker has passed the collector *)
    destruct c; try discriminate T; cbn in *; rewrite forallb_snoc, Iq; (split; [reflexivity|exact Q]).
Qed.

Lemma marker_run g sched : Marker g (run step g (init g) sched).
Proof.
  apply (inv_run step g (Marker g) (marker_step g)). repeat split; try reflexivity; [discriminate|cbn; lia].
Qed.

Lemma putback_excl g s : Marker g s -> c_room (cp s) = true -> b_putback (bp s) = true -> False.
Proof. intros [_ [_ T]] Hc Hp. rewrite Hp, orb_true_r in T. destruct (cp s); discriminate. Qed.

(* What each thread knows of the buffer's length where it is: about to append, it has seen room; inside wait() with no
   notify on its way, the collector went in on a full buffer, which only the consumer's pop, which notifies, shrinks.
   CEnterWait exists only without locked_check. *)
Definition Room (g : cfg) (s : state) : Prop :=
  length (buf s) <= cap g /\
  (c_room (cp s) = true -> length (buf s) < cap g) /\ (b_putback (bp s) = true -> length (buf s) < cap g) /\
  match cp s with
  | CFullWait => woken s = false -> cap g <= length (buf s)
  | CEnterWait => False
  | _ => True
  end.

Lemma room_step g : locked_check g = true -> forall s l s' e, Marker g s -> Room g s -> step g s l = Some (s', e) -> Room g s'.
Proof.
  intros HL s l s' e HM. generalize (putback_excl _ _ HM). clear HM.
  (* so that [locked_check g] computes inside worker_step *)
  destruct g as [bs rq po []]; [clear HL|discriminate HL].
  unfold Room, cap. intros X (Hc & Hr & Hp & W) H. worker_step H.
  (* at CFull and CFullWait the test the collector has just made is the clause: full, it waits; room, it goes on *)
  all: repeat split; auto.
  (* a pop notifies *)
  all: try (destruct c; try exact W; discriminate).
  all: try intros Hd; rewrite ?app_length; cbn [length] in *; try lia.
  (* after an append the other thread's put is not due: putback_excl *)
  all: try (exfalso; now auto).
  (* the put-back lengthens the buffer *)
  destruct c; try exact W. intros Hw. specialize (W Hw). lia.
Qed.

Lemma room_run g sched : locked_check g = true -> Room g (run step g (init g) sched).
Proof.
  intros HL. apply (inv_run_under step g (Marker g) (Room g) _ (marker_run g) (room_step g HL)).
  unfold Room, cap. cbn. repeat split; [lia|discriminate..].
Qed.

Lemma step_env_none g s : step_env g s = None -> length (reqs g) < env_next s.
Proof.
  unfold step_env. destruct (nth_error (reqs g) (env_next s)) eqn:En; [discriminate|].
  destruct (Nat.eqb_spec (env_next s) (length (reqs g))); [discriminate|]. apply nth_error_None in En. lia.
Qed.

Lemma step_b_none g s :
  Shape g s -> Room g s -> step_b g s false = None -> step_b g s true = None ->
  bp s = BDone \/ bp s = BIdle /\ buf s = [].
Proof.
  unfold Shape, Room, step_b, is_full. destruct s as [n qi bf qo c b fl wk cs]; cbn. intros [Hs _] (_ & _ & Hp & _) H Ht.
  destruct b as [|l|l|l|l|f [|u r]| | |]; try discriminate; auto.
  - destruct bf; [auto|discriminate].
  - destruct (Nat.leb_spec (cap g) (length bf)); [|discriminate]. specialize (Hp eq_refl). lia.
  - cbn in Hs. lia.
Qed.

Lemma step_c_none g s :
  locked_check g = true -> Room g s -> step_c g s = None ->
  cp s = CDone \/ cp s = CGet /\ qin s = [] \/ cp s = CFullWait /\ cap g <= length (buf s).
Proof.
  intros HL. unfold Room, step_c, is_full. rewrite HL. destruct s as [n qi bf qo c b fl wk cs]; cbn. intros (_ & Hr & _ & W) H.
  destruct c; break_match_hyp H; try discriminate H; bool_to_prop; auto.
  - destruct W.
  - specialize (Hr eq_refl). lia.
  - specialize (Hr eq_refl). lia.
Qed.

Lemma stuck_is_done g s :
  locked_check g = true -> Shape g s -> Marker g s -> Room g s ->
  stuck g s = true -> all_done g s = true.
Proof.
  intros HL HS [[_ Q] [_ T]] HR Hst. unfold stuck in Hst. cbn [step] in Hst.
  destruct (step_env g s) as [[]|] eqn:Ee, (step_c g s) as [[]|] eqn:Ec, (step_csilent g s) as [[]|],
    (step_b g s false) as [[]|] eqn:Eb, (step_b g s true) as [[]|] eqn:Ebt; try discriminate Hst.
  apply step_env_none in Ee. apply (step_c_none g s HL HR) in Ec. apply (step_b_none g s HS HR Eb) in Ebt.
  unfold all_done, bq, cq, has_stop, cap in *.
  (* of the six pairs of waits the buffer's equation of [Marker] rules out three *)
  destruct Ebt as [Hb|[Hb Hbf]]; rewrite Hb in *; [|rewrite Hbf in *]; cbn in T;
    destruct Ec as [Hc|[[Hc Hq]|[Hc Hf]]]; rewrite Hc in *; try discriminate T.
  - apply Nat.ltb_lt, Ee.
  - (* both wait on an empty queue: but the marker is sent *)
    rewrite Hq in Q. apply Q in Ee. discriminate Ee.
  - (* the collector waits for room in an empty buffer *)
    cbn in Hf. lia.
Qed.

Lemma batches_wellformed g sched l :
  1 < bsize g -> In l (calls (run step g (init g) sched)) ->
  1 <= length l <= bsize g /\ forall u, In u l -> exists j, u = S j /\ nth_error (reqs g) j = Some KGood.
Proof.
  intros Hb Hin. split.
  - destruct (shape_run g sched Hb) as [_ Hc]. rewrite Forall_forall in Hc. apply (Hc _ Hin).
  - intros u Hu. apply (good_uids_genuine g (env_next (run step g (init g) sched))).
    rewrite <- conserved_run. apply in_or_app. left. apply in_concat. eauto.
Qed.

Lemma batches_disjoint g sched : 1 < bsize g -> NoDup (concat (calls (run step g (init g) sched))).
Proof. intros _. eapply NoDup_app_l. rewrite conserved_run. apply good_from_nodup. Qed.

Lemma no_wedge g sched :
  locked_check g = true -> 1 < bsize g ->
  stuck g (run step g (init g) sched) = true -> all_done g (run step g (init g) sched) = true.
Proof.
  intros HL Hb. apply stuck_is_done; auto using shape_run, marker_run, room_run.
Qed.

Lemma accepted_exactly_once g sched :
  locked_check g = true -> 1 < bsize g ->
  all_done g (run step g (init g) sched) = true ->
  concat (calls (run step g (init g) sched)) = good_uids g (length (reqs g)).
Proof.
  intros _ _ Hd. pose proof (conserved_run g sched) as K. destruct (marker_run g sched) as [[Iq _] [Ib _]].
  unfold all_done, Conserved, bq, cq in *.
  destruct (cp (run step g (init g) sched)); try discriminate Hd.
  destruct (bp (run step g (init g) sched)); try discriminate Hd.
  apply Nat.ltb_lt in Hd.
  (* behind the markers that collector and consumer have taken there are only markers *)
  unfold uids, goods in K. rewrite (all_stop_flat_map _ _ eq_refl Ib), (all_stop_flat_map _ _ eq_refl Iq), !app_nil_r in K.
  rewrite K. apply good_uids_past. lia.
Qed.

Lemma puts_never_block g sched :
  locked_check g = true ->
  let s := run step g (init g) sched in
  (c_room (cp s) = true \/ b_putback (bp s) = true) -> is_full g s = false.
Proof.
  intros HL s H. destruct (room_run g sched HL) as (_ & Hr & Hp & _). apply Nat.leb_gt. destruct H; auto.
Qed.

Definition is_ostop (m : omsg) : bool := match m with OStop => true | _ => false end.
Definition no_ostop (l : list omsg) : bool := forallb (fun m => negb (is_ostop m)) l.

(* [cbn] leaves [no_ostop (l ++ [m])] for no_ostop_snoc to rewrite *)
Local Arguments no_ostop : simpl never.

Lemma no_ostop_snoc l m : no_ostop (l ++ [m]) = no_ostop l && negb (is_ostop m).
Proof. exact (forallb_snoc _ l m). Qed.

Lemma no_ostop_stop a b : no_ostop (a ++ OStop :: b) = false.
Proof. unfold no_ostop. rewrite forallb_app. apply andb_false_r. Qed.

Lemma split_last_stop a b a' : a ++ OStop :: b = a' ++ [OStop] -> no_ostop a' = true -> b = [] /\ no_ostop a = true.
Proof.
  intros E Ha. destruct b as [|y b _] using rev_ind.
  - apply app_inj_tail in E as [-> _]. auto.
  - rewrite app_comm_cons, app_assoc in E. apply app_inj_tail in E as [<- _]. rewrite no_ostop_stop in Ha. discriminate Ha.
Qed.

Definition OutMarker (s : state) : Prop :=
  match bp s with
  | BDone => exists a, qout s = a ++ [OStop] /\ no_ostop a = true
  | _ => no_ostop (qout s) = true
  end.

Lemma outmarker_step g s l s' e : Marker g s -> OutMarker s -> step g s l = Some (s', e) -> OutMarker s'.
Proof.
  unfold Marker, bq, OutMarker. intros [_ [_ T]] M H. worker_step H.
  all: try assumption.
  (* CProc, an exception: the marker has not passed the collector, so the consumer has not returned *)
  all: try match goal with |- match ?x with _ => _ end => destruct x; try discriminate T end.
  all: try (rewrite no_ostop_snoc, M; reflexivity).
  eauto.
Qed.

Lemma outmarker_run g sched : OutMarker (run step g (init g) sched).
Proof. apply (inv_run_under step g (Marker g) OutMarker _ (marker_run g) (outmarker_step g)). reflexivity. Qed.

Lemma marker_is_last g sched a b :
  qout (run step g (init g) sched) = a ++ OStop :: b -> b = [] /\ no_ostop a = true.
Proof.
  intros Hq. pose proof (outmarker_run g sched) as M. unfold OutMarker in M. rewrite Hq in M.
  destruct (bp _); try (rewrite no_ostop_stop in M; discriminate M).
  destruct M as (a' & E & Ha). eapply split_last_stop; eauto.
Qed.
