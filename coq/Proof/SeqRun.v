(* The sequential reference [seq_run] (used by Driver/DriverAsync.v): its outputs are an [expected_prefix], like the
   model's; and the two C16 statements about two runs of the model, corollaries of fifo_prefix / fifo_complete. *)
From Coq Require Import Lia.
From MpV Require Import Lib.Conc Model.FifoStream Proof.FifoProof Proof.FifoComplete.

Inductive seq_end := SCompleted | SBroke | SRaised (e : Z).

(* [Nat.max 1 k]: the model tests stop_after only after a hand-over, so [Some 0] behaves like [Some 1] *)
Definition stop_now (g : cfg) (acc : list (nat * res)) : bool :=
  match stop_after g with
  | Some k => (Nat.max 1 k <=? length acc)
  | None => false
  end.

(* walk the source sequentially: element i yields outcome_of g i; without return_exceptions the
   first failing element ends the stream with its exception; a source failure ends it; the consumer
   may stop after k outputs *)
Fixpoint seq_walk (g : cfg) (l : list src_item) (i : nat) (acc : list (nat * res)) : list (nat * res) * seq_end :=
  if stop_now g acc then (acc, SBroke) else
  match l with
  | [] => (acc, SCompleted)
  | SData _ :: r =>
      match outcome_of g i with
      | Err e => if return_exc g then seq_walk g r (S i) (acc ++ [(i, Err e)]) else (acc, SRaised e)
      | Ok v => seq_walk g r (S i) (acc ++ [(i, Ok v)])
      end
  | SRaise e :: _ | SRaiseBase e :: _ => (acc, SRaised e)
  end.

Definition seq_run (g : cfg) : list (nat * res) * seq_end := seq_walk g (src g) 0 [].

Lemma seq_walk_prefix g l : forall i acc,
  acc = expected_prefix g i ->
  fst (seq_walk g l i acc) = expected_prefix g (length (fst (seq_walk g l i acc))).
Proof.
  (* where the walk stops it returns [acc], of length i; where it goes on [acc] becomes expected_prefix g (S i) *)
  induction l as [|a r IH]; intros i acc ->; cbn [seq_walk]; destruct (stop_now g _);
    try (cbn; now rewrite expected_prefix_length).
  destruct a as [x|e|e]; try (cbn; now rewrite expected_prefix_length).
  pose proof (expected_prefix_S g i) as Hs.
  destruct (outcome_of g i) as [v|e0]; [|destruct (return_exc g)]; try (apply IH; now rewrite Hs).
  cbn. now rewrite expected_prefix_length.
Qed.

Lemma seq_run_prefix g :
  fst (seq_run g) = expected_prefix g (length (fst (seq_run g))).
Proof. unfold seq_run. apply seq_walk_prefix. reflexivity. Qed.

Lemma runs_agree g sched1 sched2 :
  let s1 := run step g (init g) sched1 in
  let s2 := run step g (init g) sched2 in
  firstn (Nat.min (length (received s1)) (length (received s2))) (received s1) =
  firstn (Nat.min (length (received s1)) (length (received s2))) (received s2).
Proof.
  cbn. rewrite (fifo_prefix g sched1), (fifo_prefix g sched2), !expected_prefix_length.
  rewrite !firstn_expected_prefix by lia. reflexivity.
Qed.

Lemma completed_runs_equal g sched1 sched2 :
  cp (run step g (init g) sched1) = CDone Completed ->
  cp (run step g (init g) sched2) = CDone Completed ->
  received (run step g (init g) sched1) = received (run step g (init g) sched2).
Proof.
  intros H1 H2. destruct (fifo_complete g sched1 H1) as [-> _]. destruct (fifo_complete g sched2 H2) as [-> _].
  reflexivity.
Qed.
