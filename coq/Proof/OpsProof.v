(* C03: each stream operator equals its list function.  [drive_cons] unfolds the driver loop by one element;
   [<op>_drive] is an operator's equation from any operator state, [<op>_spec] its instance at the initial
   state (for tail and groupby Props/C03.v instantiates the [_drive] lemma itself; accumulate_spec and groupby_spec are the
   list functions of Model/Ops.v).  Only [head_drive] and the
   stateless operators are for any ending of the source; the other [_drive] equations are for [End]. *)
From MpV Require Import Lib.Tac Lib.ListFacts Model.Ops.
From Coq Require Import Permutation.
Open Scope nat_scope.

Lemma flat_map_single {A B} (g : A -> B) xs : flat_map (fun x => [g x]) xs = map g xs.
Proof. induction xs; cbn; congruence. Qed.

Lemma flat_map_filter {A} (b : A -> bool) xs :
  flat_map (fun x => if b x then [x] else []) xs = filter b xs.
Proof. induction xs as [|x xs IH]; cbn; [reflexivity|]. destruct (b x); cbn; congruence. Qed.

Lemma upd_nth_perm {A} n x (l : list A) d :
  n < length l -> Permutation (nth n l d :: upd_nth n x l) (x :: l).
Proof.
  revert n; induction l as [|h t IH]; intros [|n] H; cbn in *; try lia; [apply perm_swap|].
  eapply perm_trans; [apply perm_swap|]. eapply perm_trans; [|apply perm_swap].
  constructor. apply IH. lia.
Qed.

(* the recursive call is kept whole, so that an induction hypothesis about [drive] or its [fst] rewrites in it *)
Lemma drive_cons o s x xs up p :
  drive o s (x :: xs) up p =
    let '(s', out, st) := on_elem o s x in
    match st with
    | Continue => let r := drive o s' xs up (S p) in (out ++ fst (fst r), snd (fst r), snd r)
    | Stop => (out, End, S p)
    | Fail e => (out, Raise e, S p)
    end.
Proof.
  cbn [drive]. destruct (on_elem o s x) as [[s' out] [| |e]]; try reflexivity.
  now destruct (drive o s' xs up (S p)) as [[o2 e2] n2].
Qed.

Lemma drive_stateless_app o s pre rest up p (h : elem -> list elem) :
  (forall x, In x pre -> on_elem o s x = (s, h x, Continue)) ->
  fst (drive o s (pre ++ rest) up p) =
    let r := fst (drive o s rest up (length pre + p)) in (flat_map h pre ++ fst r, snd r).
Proof.
  revert p; induction pre as [|x pre IH]; intros p H; cbn [app length flat_map Nat.add].
  - now destruct (drive o s rest up p) as [[o2 e2] n2].
  - rewrite drive_cons, (H x (or_introl eq_refl)). cbn [fst snd].
    rewrite IH by (intros y Hy; apply H; now right). cbn. now rewrite Nat.add_succ_r, app_assoc.
Qed.

Lemma run_stateless o h xs up :
  (forall x, In x xs -> on_elem o (init_state o) x = (init_state o, h x, Continue)) ->
  on_end o (init_state o) = [] ->
  run_op o (xs, up) = (flat_map h xs, up).
Proof.
  intros H He. pose proof (drive_stateless_app o _ xs [] up 0 h H) as E. rewrite app_nil_r in E.
  unfold run_op. cbn [fst snd]. rewrite E. destruct up; cbn; now rewrite ?He, app_nil_r.
Qed.

Lemma run_elementwise o g xs up :
  (forall x, on_elem o (init_state o) x = (init_state o, [g x], Continue)) ->
  on_end o (init_state o) = [] ->
  run_op o (xs, up) = (map g xs, up).
Proof. intros H He. rewrite <- flat_map_single. now apply run_stateless. Qed.

Lemma map_spec f g xs up : total f g -> run_op (OMap f) (xs, up) = (map g xs, up).
Proof. intros Hf. apply run_elementwise; [|reflexivity]. intros x. cbn. now rewrite Hf. Qed.

Lemma filter_spec p b xs up :
  (forall x, p x = POk (b x)) -> run_op (OFilter p) (xs, up) = (filter b xs, up).
Proof.
  intros Hp. rewrite <- flat_map_filter. apply run_stateless; [|reflexivity].
  intros x _. cbn. rewrite Hp. now destruct (b x).
Qed.

Lemma identity_spec o xs up : o = OPeek \/ (exists n, o = OBuffer n) -> run_op o (xs, up) = (xs, up).
Proof.
  intros [->|[n ->]]; (transitivity (map (fun x => x) xs, up); [now apply run_elementwise|now rewrite map_id]).
Qed.

Definition parmap_out (g : elem -> elem) (rx : bool) (x : elem) : elem := if rx then P x (g x) else g x.

Lemma parmap_spec f g rx re xs up :
  total f g -> run_op (OParmap f rx re) (xs, up) = (map (parmap_out g rx) xs, up).
Proof. intros Hf. apply run_elementwise; [|reflexivity]. intros x. cbn. now rewrite Hf. Qed.

(* with return_exceptions, a failing call becomes that element's own exception object *)
Definition parmap_exc_out (f : elem -> fres) (rx : bool) (x : elem) : elem :=
  let y := match f x with FOk y => y | FErr e => X e end in if rx then P x y else y.

Lemma parmap_return_exceptions_spec f rx xs up :
  run_op (OParmap f rx true) (xs, up) = (map (parmap_exc_out f rx) xs, up).
Proof.
  apply run_elementwise; [|reflexivity]. intros x. cbn. unfold parmap_exc_out. now destruct (f x).
Qed.

Lemma map_first_failure f g pre x post e up :
  (forall y, In y pre -> f y = FOk (g y)) -> f x = FErr e ->
  run_op (OMap f) (pre ++ x :: post, up) = (map g pre, Raise e).
Proof.
  intros Hpre Hx. unfold run_op; cbn [fst snd init_state].
  rewrite (drive_stateless_app _ _ _ _ _ _ (fun y => [g y])) by (intros y Hy; cbn; now rewrite Hpre).
  rewrite drive_cons. cbn [on_elem]. rewrite Hx. cbn. now rewrite flat_map_single, app_nil_r.
Qed.

Lemma head_drive n c xs up p :
  c < n ->
  drive (OHead n) (SCount c) xs up p =
    (firstn (n - c) xs, if n - c <=? length xs then End else up, p + min (n - c) (length xs)).
Proof.
  revert c p; induction xs as [|x xs IH]; intros c p Hc.
  - cbn [drive length]. rewrite (proj2 (Nat.leb_gt _ _)), firstn_nil, Nat.min_0_r, Nat.add_0_r by lia.
    now destruct up.
  - rewrite drive_cons. cbn [on_elem length]. destruct (n <=? S c) eqn:E; bool_to_prop.
    + replace (n - c) with 1 by lia. cbn. now rewrite Nat.add_1_r.
    + rewrite IH by lia. replace (n - c) with (S (n - S c)) by lia. cbn. now rewrite Nat.add_succ_r.
Qed.

Lemma head_spec n xs : 1 <= n -> run_op (OHead n) (xs, End) = (firstn n xs, End).
Proof.
  intros Hn. unfold run_op; cbn [fst snd init_state]. rewrite head_drive, Nat.sub_0_r by lia.
  now destruct (n <=? length xs).
Qed.

Lemma head_ignores_rest n xs rest up :
  1 <= n -> length xs = n -> run_op (OHead n) (xs ++ rest, up) = (xs, End).
Proof.
  intros Hn <-. unfold run_op; cbn [fst snd init_state]. rewrite head_drive, Nat.sub_0_r by lia. cbn [fst].
  now rewrite firstn_app_le, firstn_all, (proj2 (Nat.leb_le _ _)) by (rewrite ?app_length; lia).
Qed.

Lemma head_pulls n st : 1 <= n -> pulls_of (OHead n) st <= n.
Proof. intros Hn. unfold pulls_of; cbn [init_state]. rewrite head_drive by lia. cbn [snd]. lia. Qed.

Lemma lastn_length n l : length (lastn n l) <= n.
Proof. unfold lastn. rewrite skipn_length. lia. Qed.

Lemma skipn_add {A} a b (l : list A) : skipn a (skipn b l) = skipn (a + b) l.
Proof.
  revert l; induction b as [|b IH]; intros l; [now rewrite Nat.add_0_r|].
  rewrite Nat.add_succ_r. destruct l; [now rewrite !skipn_nil|apply IH].
Qed.

(* what was dropped from a window is beyond the last n of any extension *)
Lemma lastn_app_lastn n l xs : lastn n (lastn n l ++ xs) = lastn n (l ++ xs).
Proof.
  unfold lastn. rewrite !app_length, skipn_length. set (k := length l - n).
  replace (skipn k l ++ xs) with (skipn k (l ++ xs)).
  - rewrite skipn_add. f_equal. lia.
  - rewrite skipn_app. now replace (k - length l) with 0 by lia.
Qed.

Lemma push_window_spec n w x : length w <= n -> push_window n w x = lastn n (w ++ [x]).
Proof.
  intros Hw. unfold push_window, lastn. rewrite app_length, Nat.add_1_r.
  destruct (n <? S (length w)) eqn:E; bool_to_prop.
  - replace (S (length w) - n) with 1 by lia. now destruct (w ++ [x]).
  - now replace (S (length w) - n) with 0 by lia.
Qed.

(* Tailer's window is the last n of everything seen so far *)
Lemma tail_drive n l xs p :
  fst (drive (OTail n) (SList (lastn n l)) xs End p) = (lastn n (l ++ xs), End).
Proof.
  revert l p; induction xs as [|x xs IH]; intros l p.
  - cbn. now rewrite app_nil_r.
  - rewrite drive_cons. cbn [on_elem].
    rewrite push_window_spec, lastn_app_lastn by apply lastn_length. cbn.
    now rewrite IH, <- app_assoc.
Qed.

Lemma batch_drive n b xs p :
  fst (drive (OBatch n) (SList b) xs End p) = (chunks_aux n b xs, End).
Proof.
  revert b p; induction xs as [|x xs IH]; intros b p; [now destruct b|].
  rewrite drive_cons. cbn. destruct (length (b ++ [x]) =? n); cbn; now rewrite IH.
Qed.

Lemma batch_spec n xs : run_op (OBatch n) (xs, End) = (chunks n xs, End).
Proof. apply batch_drive. Qed.

Definition unL (e : elem) : list elem := match e with L l => l | _ => [] end.
Definition is_batch (n : nat) (e : elem) : Prop := exists l, e = L l /\ 1 <= length l <= n.

Lemma chunks_aux_flat n b xs : flat_map unL (chunks_aux n b xs) = b ++ xs.
Proof.
  revert b; induction xs as [|x xs IH]; intros b; cbn.
  - destruct b; cbn; now rewrite ?app_nil_r.
  - destruct (length (b ++ [x]) =? n); cbn; rewrite IH, <- ?app_assoc; reflexivity.
Qed.

Lemma chunks_aux_sizes n b xs : length b < n -> Forall (is_batch n) (chunks_aux n b xs).
Proof.
  revert b; induction xs as [|x xs IH]; intros b Hb; cbn.
  - destruct b as [|y b]; repeat constructor. exists (y :: b). cbn in *. split; [reflexivity|lia].
  - assert (Hl : length (b ++ [x]) = S (length b)) by (rewrite app_length; apply Nat.add_1_r).
    rewrite Hl. destruct (S (length b) =? n) eqn:E; bool_to_prop.
    + constructor; [|apply IH; cbn; lia]. exists (b ++ [x]). split; [reflexivity|lia].
    + apply IH. lia.
Qed.

Lemma batch_flatten n xs :
  1 <= n -> flat_map unL (chunks n xs) = xs /\ Forall (is_batch n) (chunks n xs).
Proof. intros Hn. split; [apply chunks_aux_flat|now apply chunks_aux_sizes]. Qed.

Lemma unbatch_lists xs up :
  Forall (fun x => exists l, x = L l) xs -> run_op OUnbatch (xs, up) = (flat_map unL xs, up).
Proof.
  intros H. apply run_stateless; [|reflexivity].
  intros x Hx. rewrite Forall_forall in H. now destruct (H x Hx) as [l ->].
Qed.

Lemma unbatch_spec ls :
  run_op OUnbatch (map L ls, End) = (concat ls, End).
Proof.
  rewrite unbatch_lists by (apply Forall_map, Forall_forall; eauto).
  rewrite flat_map_concat_map, map_map. cbn. now rewrite map_id.
Qed.

Lemma unbatch_of_chunks n xs :
  1 <= n -> run_op OUnbatch (chunks n xs, End) = (xs, End).
Proof.
  intros Hn. destruct (batch_flatten n xs Hn) as [Hf Hb]. rewrite unbatch_lists, Hf; [reflexivity|].
  eapply Forall_impl; [|exact Hb]. intros x [l [-> _]]. eauto.
Qed.

Lemma accum_drive f g z xs p i0 :
  (forall a b, f a b = FOk (g a b)) ->
  fst (drive (OAccum f i0) (SAcc z) xs End p) = (accumulate_spec g z xs, End).
Proof.
  intros Hf. revert z p; induction xs as [|x xs IH]; intros z p; [now destruct z|].
  rewrite drive_cons. destruct z as [a|]; cbn [on_elem]; rewrite ?Hf; cbn; now rewrite IH.
Qed.

Lemma accum_spec f g init xs :
  (forall a b, f a b = FOk (g a b)) ->
  run_op (OAccum f init) (xs, End) = (accumulate_spec g init xs, End).
Proof. intros Hf. now apply accum_drive. Qed.

Lemma group_drive key k keq cur xs p :
  total key k ->
  fst (drive (OGroupby key keq) (SGroup cur) xs End p) =
    (match cur with Some c => group_aux k keq c xs | None => groupby_spec k keq xs end, End).
Proof.
  intros Hk. revert cur p; induction xs as [|x xs IH]; intros cur p; [now destruct cur as [[k0 g]|]|].
  rewrite drive_cons. destruct cur as [[k0 g]|]; cbn [on_elem]; rewrite Hk; cbn.
  - destruct (keq k0 (k x)); cbn; now rewrite IH.
  - now rewrite IH.
Qed.

Definition group_members (e : elem) : list elem := match e with P _ (L g) => g | _ => [] end.

Lemma group_aux_flat k keq cur xs :
  flat_map group_members (group_aux k keq cur xs) = snd cur ++ xs.
Proof.
  revert cur; induction xs as [|x xs IH]; intros [k0 g]; cbn.
  - now rewrite app_nil_r.
  - destruct (keq k0 (k x)); cbn; rewrite IH; cbn; now rewrite <- ?app_assoc.
Qed.

(* concatenating the groups gives back the input: nothing lost, duplicated or reordered *)
Lemma groupby_flatten k keq xs : flat_map group_members (groupby_spec k keq xs) = xs.
Proof. destruct xs as [|x xs]; cbn; [reflexivity|]. now rewrite group_aux_flat. Qed.

Lemma set_nth_upd n x l : set_nth n x l = upd_nth n x l.
Proof. revert n; induction l; intros [|n]; cbn; congruence. Qed.

Lemma shuffle_drive n perm buf dr xs p d0 :
  1 <= n -> (forall l, Permutation (perm l) l) ->
  let r := fst (drive (OShuffle n d0 perm) (SShuf buf dr) xs End p) in
  Permutation (fst r) (buf ++ xs) /\ snd r = End.
Proof.
  intros Hn Hp. revert buf dr p; induction xs as [|x xs IH]; intros buf dr p.
  - cbn. rewrite app_nil_r. split; [|reflexivity]. destruct buf; [constructor|apply Hp].
  - cbn zeta. rewrite drive_cons. cbn [on_elem]. destruct (length buf <? n) eqn:E; bool_to_prop; cbn [fst snd].
    + change (buf ++ x :: xs) with (buf ++ [x] ++ xs). rewrite app_assoc. apply IH.
    + (* the buffer holds at least n elements, so the draw, which is below n, is an index of it *)
      rewrite set_nth_upd. set (idx := (match dr with d :: _ => d | [] => 0 end) mod n).
      assert (Hidx : idx < length buf) by (apply Nat.lt_le_trans with n; [apply Nat.mod_upper_bound; lia|exact E]).
      destruct (IH (upd_nth idx x buf) (tl dr) (S p)) as [Ho He]. split; [|exact He].
      cbn. rewrite Ho, app_comm_cons, (upd_nth_perm idx x buf N Hidx). apply Permutation_middle.
Qed.

Lemma shuffle_is_permutation n draws perm xs :
  1 <= n -> (forall l, Permutation (perm l) l) ->
  Permutation (fst (run_op (OShuffle n draws perm) (xs, End))) xs
  /\ snd (run_op (OShuffle n draws perm) (xs, End)) = End.
Proof. intros Hn Hp. apply (shuffle_drive n perm [] draws xs 0 draws Hn Hp). Qed.

(* operators that are one-to-one and inline (no look-ahead of their own) *)
Inductive inline_1to1 : op -> Prop :=
| I_map f g : total f g -> inline_1to1 (OMap f)
| I_peek : inline_1to1 OPeek
| I_acc f g i : (forall a b, f a b = FOk (g a b)) -> inline_1to1 (OAccum f i).

Lemma scan_firstn g a k xs : scan g a (firstn k xs) = firstn k (scan g a xs).
Proof. revert a k; induction xs as [|x xs IH]; intros a [|k]; cbn; try reflexivity. now rewrite IH. Qed.

Lemma accumulate_spec_firstn g i k xs :
  accumulate_spec g i (firstn k xs) = firstn k (accumulate_spec g i xs).
Proof.
  destruct i as [a|]; [apply scan_firstn|].
  destruct xs as [|x xs], k as [|k]; cbn; try reflexivity. now rewrite scan_firstn.
Qed.

Lemma inline_prefix o :
  inline_1to1 o ->
  exists F, (forall xs, run_op o (xs, End) = (F xs, End))
            /\ forall k xs, F (firstn k xs) = firstn k (F xs).
Proof.
  intros [f g Hf| |f g i Hf].
  - exists (map g). split; intros; [now apply map_spec|symmetry; apply firstn_map].
  - exists (fun xs => xs). split; intros; [apply identity_spec; now left|reflexivity].
  - exists (accumulate_spec g i). split; intros; [now apply accum_spec|apply accumulate_spec_firstn].
Qed.

Lemma pipeline_cons o ops st : run_pipeline (o :: ops) st = run_pipeline ops (run_op o st).
Proof. reflexivity. Qed.

Lemma inline_chain_prefix ops :
  Forall inline_1to1 ops ->
  exists F, (forall xs, run_pipeline ops (xs, End) = (F xs, End))
            /\ forall k xs, F (firstn k xs) = firstn k (F xs).
Proof.
  induction 1 as [|o ops Ho _ (F & HF & HFk)]; [now exists (fun xs => xs)|].
  destruct (inline_prefix o Ho) as (G & HG & HGk). exists (fun xs => F (G xs)). split; intros.
  - now rewrite pipeline_cons, HG, HF.
  - now rewrite HGk, HFk.
Qed.
