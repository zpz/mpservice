(* C18: after a well-formed header [read_record] is [read_exactly] of what follows ([read_record_header]).
   The round trip is the case where the payload follows, a truncated record (SockFrameTrunc.v) the case
   where less does; a stream of records decodes by repeating the round trip. *)
From MpV Require Import Model.SockFrame.
From Coq Require Import Lia.

(* used in the statements of Props/C18.v *)
Definition wf_record (r : record) : bool := wf_token (r_id r) && wf_token (r_enc r).

Definition encode_all (rs : list record) : bytes :=
  concat (map (fun r => encode_record (r_id r) (r_enc r) (r_payload r)) rs).

Lemma bytes_uint_roundtrip u : bytes_uint (uint_bytes u) = Some u.
Proof. induction u; cbn; try rewrite IHu; reflexivity. Qed.

Lemma render_nonnil n : render_nat n <> [].
Proof.
  unfold render_nat. destruct (Nat.to_uint n) eqn:E; try discriminate.
  (* only 0 could be written without a digit, and it is written "0" *)
  pose proof (Unsigned.of_to n) as Ho. rewrite E in Ho. subst n. discriminate E.
Qed.

Lemma parse_render n : parse_nat (render_nat n) = Some n.
Proof.
  unfold parse_nat. pose proof (render_nonnil n) as H. destruct (render_nat n) eqn:E; [congruence|].
  rewrite <- E. unfold render_nat. rewrite bytes_uint_roundtrip. cbn. now rewrite Unsigned.of_to.
Qed.

(* the ten digit codes are left to [reflexivity]: [cbn] on unary byte codes is slow *)
Lemma digits_no_ws u : no_ws (uint_bytes u) = true.
Proof. unfold no_ws. induction u; cbn [uint_bytes forallb]; rewrite ?IHu; reflexivity. Qed.

Lemma no_ws_app a b : no_ws (a ++ b) = no_ws a && no_ws b.
Proof. unfold no_ws. apply forallb_app. Qed.

Lemma wf_token_iff l : wf_token l = true <-> l <> [] /\ no_ws l = true.
Proof. unfold wf_token. destruct l; cbn [negb andb]; intuition congruence. Qed.

Lemma render_wf n : wf_token (render_nat n) = true.
Proof. apply wf_token_iff. split; [apply render_nonnil|apply digits_no_ws]. Qed.

Definition no_nl (l : bytes) : bool := forallb (fun b => negb (b =? NL)) l.

Lemma no_nl_app a b : no_nl (a ++ b) = no_nl a && no_nl b.
Proof. apply forallb_app. Qed.

Lemma no_ws_no_nl a : no_ws a = true -> no_nl a = true.
Proof.
  intros H. apply forallb_forall. intros x Hx. apply (proj1 (forallb_forall _ _) H) in Hx.
  (* NL is a white-space byte: at NL, [Hx] computes to [false = true] *)
  now destruct (Nat.eqb_spec x NL) as [->|].
Qed.

Lemma read_until_nl_skip a s :
  no_nl a = true ->
  read_until_nl (a ++ s) = option_map (fun '(l, r) => (a ++ l, r)) (read_until_nl s).
Proof.
  induction a as [|b a IH]; cbn; intros H; [now destruct (read_until_nl s) as [[l r]|]|].
  apply andb_true_iff in H as [Hb Ha]. apply negb_true_iff in Hb. rewrite Hb, IH by assumption.
  now destruct (read_until_nl s) as [[l r]|].
Qed.

Lemma split_token cur tok r :
  no_ws tok = true -> split_ws_aux cur (tok ++ r) = split_ws_aux (cur ++ tok) r.
Proof.
  revert cur; induction tok as [|b tok IH]; intros cur H; cbn in *.
  - now rewrite app_nil_r.
  - apply andb_true_iff in H as [Hb Htok]. apply negb_true_iff in Hb.
    now rewrite Hb, IH, <- app_assoc.
Qed.

Lemma split_first tok r :
  wf_token tok = true -> split_ws_aux [] (tok ++ SP :: r) = tok :: split_ws_aux [] r.
Proof. intros [Hne H]%wf_token_iff. rewrite split_token by exact H. now destruct tok. Qed.

Lemma split_last tok : wf_token tok = true -> split_ws_aux [] tok = [tok].
Proof.
  intros [Hne H]%wf_token_iff. rewrite <- (app_nil_r tok) at 1. rewrite split_token by exact H.
  now destruct tok.
Qed.

Lemma split_header id num enc :
  wf_token id = true -> wf_token num = true -> wf_token enc = true ->
  split_ws (id ++ [SP] ++ num ++ [SP] ++ enc) = [id; num; enc].
Proof.
  (* [List.app]: Model/SockFrame exports Decimal, whose [app] hides the one on lists *)
  intros Hi Hn He. unfold split_ws. cbn [List.app]. now rewrite !split_first, split_last.
Qed.

Lemma read_exactly_app p rest : read_exactly (length p) (p ++ rest) = Some (p, rest).
Proof.
  unfold read_exactly. rewrite app_length, (proj2 (Nat.leb_le _ _)) by lia.
  now rewrite firstn_app, Nat.sub_diag, firstn_all, skipn_app, Nat.sub_diag, skipn_all, app_nil_r.
Qed.

Lemma read_exactly_short n s : length s < n -> read_exactly n s = None.
Proof. intros H. unfold read_exactly. now rewrite (proj2 (Nat.leb_gt _ _)). Qed.

(* the header without its newline: what readuntil hands to split() *)
Definition line (id enc : bytes) (n : nat) : bytes := id ++ [SP] ++ render_nat n ++ [SP] ++ enc.

Lemma header_line id enc n : header id enc n = line id enc n ++ [NL].
Proof. unfold header, line. now rewrite <- !app_assoc. Qed.

Lemma line_no_nl id enc n : wf_token id = true -> wf_token enc = true -> no_nl (line id enc n) = true.
Proof.
  intros [_ Hi]%wf_token_iff [_ He]%wf_token_iff. unfold line.
  now rewrite !no_nl_app, (no_ws_no_nl id), (no_ws_no_nl (render_nat n)), (no_ws_no_nl enc)
    by (assumption || apply digits_no_ws).
Qed.

Lemma read_record_header id enc n s :
  wf_token id = true -> wf_token enc = true ->
  read_record (header id enc n ++ s) =
    option_map (fun '(p, rest) => ({| r_id := id; r_enc := enc; r_payload := p |}, rest))
               (read_exactly n s).
Proof.
  intros Hi He. unfold read_record. rewrite header_line, <- app_assoc. cbn [List.app].
  rewrite read_until_nl_skip by now apply line_no_nl. cbn. rewrite removelast_last.
  unfold line. rewrite split_header, parse_render by auto using render_wf.
  now destruct (read_exactly n s) as [[p rest]|].
Qed.

Lemma frame_roundtrip id enc payload rest :
  wf_token id = true -> wf_token enc = true ->
  read_record (encode_record id enc payload ++ rest) =
    Some ({| r_id := id; r_enc := enc; r_payload := payload |}, rest).
Proof.
  intros Hi He. unfold encode_record.
  now rewrite <- app_assoc, read_record_header, read_exactly_app.
Qed.

Lemma encode_record_nonnil id enc p : encode_record id enc p <> [].
Proof. unfold encode_record, header. now destruct id. Qed.

(* [read_all] recurses on the fuel but looks at the stream first: for a stream not known to be a
   cons [read_all (S f) s] does not reduce *)
Lemma read_all_step f s :
  s <> [] ->
  read_all (S f) s = match read_record s with
                     | Some (r, rest) => option_map (cons r) (read_all f rest)
                     | None => None
                     end.
Proof. destruct s; [congruence|reflexivity]. Qed.

Lemma read_all_encode rs : forall fuel,
  length rs <= fuel -> forallb wf_record rs = true -> read_all fuel (encode_all rs) = Some rs.
Proof.
  induction rs as [|[id enc p] rs IH]; intros fuel Hf H; [now destruct fuel|].
  destruct fuel as [|fuel]; cbn in Hf; [lia|].
  cbn in H. apply andb_true_iff in H as [[Hi He]%andb_true_iff Hrs].
  change (encode_all (_ :: rs)) with (encode_record id enc p ++ encode_all rs).
  rewrite read_all_step.
  - now rewrite frame_roundtrip, IH by (assumption || lia).
  - intros [E _]%app_eq_nil. exact (encode_record_nonnil _ _ _ E).
Qed.

Lemma frames_concat rs :
  forallb wf_record rs = true -> read_all (length rs) (encode_all rs) = Some rs.
Proof. apply read_all_encode, le_n. Qed.
