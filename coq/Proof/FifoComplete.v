(* Completeness of fifo_stream (C01), on top of FifoProof.Inv. *)
From MpV Require Import Lib.Conc Model.FifoStream Proof.FifoProof.

(* the source held data items only and all of them were pulled *)
Definition clean (g : cfg) (s : state) : Prop :=
  rest s = [] /\ pulled s = length (datas (src g)) /\ src g = map SData (datas (src g)).

(* the source is the data pulled so far followed by what is left *)
Definition srcrel (g : cfg) (s : state) : Prop :=
  exists done, src g = map SData done ++ rest s /\ length done = pulled s.

Definition feeding (f : fpc) : bool :=
  match f with FIdle | FNext | FChk _ | FPre _ | FSubmit _ _ | FPut _ => true | _ => false end.

Definition cp_outcome (c : cpc) : option outcome :=
  match c with
  | CSetStop o | CDrainChk o | CDrainGet o | CCancel _ o | CJoin o | CDone o => Some o
  | _ => None
  end.

(* The end marker is put only when the source is [clean], which [srcrel] gives when it runs out; the consumer reaches
   Completed only by taking it out of the queue, and then, by the order equation of [Inv], it has received everything
   that was pulled. *)
Record Completion (g : cfg) (s : state) : Prop := {
  c_src : feeding (fp s) = true -> srcrel g s;
  c_end : phase1 (cp s) = true -> fp s = FPutEnd \/ In QEnd (q s) -> clean g s;
  c_done : cp_outcome (cp s) = Some Completed -> clean g s /\ fp s = FDone /\ length (received s) = pulled s
}.

Lemma datas_map l : datas (map SData l) = l.
Proof. induction l; cbn; congruence. Qed.

Lemma srcrel_end_clean g s : srcrel g s -> rest s = [] -> clean g s.
Proof.
  intros [done [H1 H2]] Hr. rewrite Hr, app_nil_r in H1.
  assert (Hd : datas (src g) = done) by (rewrite H1; apply datas_map).
  unfold clean. rewrite Hd. auto.
Qed.

Lemma completion_init g : Completion g (init g).
Proof. constructor; cbn; try easy; [now exists [] | now intros _ [|]]. Qed.

Lemma no_end_marker g s : Inv g s -> fp s <> FDone -> ~ In QEnd (q s).
Proof.
  intros HI Hf Hin. apply Hf, (i_end _ _ HI). apply existsb_exists. now exists QEnd.
Qed.

Lemma completion_step g s s' : Inv g s -> Completion g s -> trans g s s' -> Completion g s'.
Proof.
  intros HI [Hsrc Hend Hdone] Ht. destruct Ht.
  - (* feeder *)
    assert (Hno : ~ In QEnd (q s)) by (apply (no_end_marker g s HI); destruct St; congruence).
    constructor.
    + (* c_src *)
      destruct St; cbn; try discriminate; intros _; rewrite Ef in Hsrc; try exact (Hsrc eq_refl).
      destruct (Hsrc eq_refl) as (done & E & El). exists (done ++ [x]).
      rewrite map_app, <- app_assoc, app_length, El, Nat.add_1_r, E, Er. auto.
    + (* c_end *)
      destruct St; cbn; intros Hc [E|E]; try discriminate E; try contradiction;
        try (apply in_app_or in E as [E|[E|[]]]; [contradiction|try discriminate E]).
      * apply srcrel_end_clean; [apply Hsrc; now rewrite Ef|exact Er].
      * (* the stop flag is not set while the consumer iterates *)
        destruct (i_order _ _ HI Hc). congruence.
      * exact (Hend Hc (or_introl Ef)).
    + (* c_done *)
      intros Ho. destruct (Hdone ltac:(destruct St; exact Ho)) as (_ & Hf & _). destruct St; congruence.
  - (* consumer *)
    constructor.
    + (* c_src *)
      destruct St; try exact Hsrc. intros _. apply Hsrc. now rewrite (proj1 (i_start _ _ HI) Ec).
    + (* c_end *)
      destruct St; cbn; try discriminate; rewrite Ec in Hend; intros _ [E|E]; try discriminate E;
        apply (Hend eq_refl); auto; right; rewrite Eq; now right.
    + (* c_done: the end marker was the last item: nothing is on its way any more *)
      destruct St; cbn; try discriminate; rewrite Ec in Hdone; try exact Hdone.
      intros _. pose proof (i_eok _ _ HI) as Hk. rewrite Eq in Hk. apply eok_tail in Hk. destruct Hk as [_ Hq'].
      rewrite Ec in Hend. split; [apply (Hend eq_refl); right; rewrite Eq; now left|].
      assert (Hf : fp s = FDone) by (apply (i_end _ _ HI); now rewrite Eq). split; [exact Hf|].
      destruct (i_order _ _ HI) as [_ Ho]; [now rewrite Ec|].
      rewrite Ec, Eq, Hf, (Hq' eq_refl) in Ho. cbn in Ho. rewrite app_nil_r in Ho.
      rewrite <- (map_length fst), Ho. apply seq_length.
  - (* worker *)
    destruct St; constructor; assumption.
Qed.

Lemma completion_run g sched : Completion g (run step g (init g) sched).
Proof. apply (reach_under g (Inv g)); [apply inv_run | apply completion_step | apply completion_init]. Qed.

Lemma fifo_complete g sched :
  let s := run step g (init g) sched in
  cp s = CDone Completed ->
  received s = expected_prefix g (length (datas (src g))) /\ src g = map SData (datas (src g)).
Proof.
  cbn. intros Hc. destruct (c_done _ _ (completion_run g sched)) as ((_ & Hp & Hsrc) & _ & Hlen); [now rewrite Hc|].
  split; [|exact Hsrc]. rewrite <- Hp, <- Hlen. apply fifo_prefix.
Qed.
