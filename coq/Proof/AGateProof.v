(* Model/AGate.v: the repaired admission gate of AsyncServer never leaves a caller waiting in front of free room without a
   wake-up under way; before the repair it does. *)
From MpV Require Import Lib.Tac Lib.Conc Model.AGate.

Lemma notify_b s : b (notify s) = b s.
Proof. unfold notify; destruct (w s); reflexivity. Qed.

Lemma bounded_step g s l s' e : b s <= cap g -> step g s l = Some (s', e) -> b s' <= cap g.
Proof.
  intros Hb Hs. unfold step in Hs. step_cases Hs; bool_to_prop; rewrite ?notify_b; cbn [AGate.b]; lia.
Qed.

Theorem gate_bounded g sched : b (run step g init sched) <= cap g.
Proof. apply (inv_run step g (fun s => b s <= cap g)); [eauto using bounded_step|cbn; lia]. Qed.

(* every free slot that somebody is waiting for has a wake-up under way: a notify() not yet run, or a notified waiter that has
   not yet run *)
Definition Covered (g : cfg) (s : state) : Prop := 0 < w s -> cap g <= b s + n s + p s.

(* notify() makes up for one wake-up that has just been used up or lost *)
Lemma notify_covers g s : (0 < w s -> cap g <= b s + n s + p s + 1) -> Covered g (notify s).
Proof. unfold Covered, notify. destruct (w s) as [|w'] eqn:E; cbn [b p w n]; lia. Qed.

Lemma covered_step g s l s' e : pass_on g = true -> Covered g s -> step g s l = Some (s', e) -> Covered g s'.
Proof.
  (* Notify, Leave, CancelNotified and Spurious end in notify(); the other steps keep b + n + p, or find no room *)
  intros Hp Hw Hs. unfold step in Hs. rewrite Hp in Hs. unfold Covered in Hw.
  step_cases Hs; bool_to_prop; first [apply notify_covers|unfold Covered]; cbn [AGate.b AGate.p AGate.w AGate.n]; lia.
Qed.

Lemma covered_run g sched : pass_on g = true -> Covered g (run step g init sched).
Proof. intros Hp. apply (inv_run step g (Covered g)); [eauto using covered_step|inversion 1]. Qed.

Theorem gate_never_starves g sched : pass_on g = true -> starving g (run step g init sched) = false.
Proof.
  intros Hp. pose proof (covered_run g sched Hp) as Hw. apply not_true_is_false. intros H.
  unfold Covered, starving in *. bool_to_prop. lia.
Qed.

(* before the repair: a notified waiter that is cancelled takes the wake-up with it *)
Theorem gate_starves_without_pass_on :
  exists sched, starving {| cap := 1; pass_on := false |} (run step {| cap := 1; pass_on := false |} init sched) = true.
Proof. exists [Arrive; Arrive; Arrive; Pop; Notify; CancelNotified]. vm_compute. reflexivity. Qed.

(* used nowhere: the number of callers that have arrived, by where they are now, and that notify()
   leaves it unchanged (one caller goes from waiting to notified) *)
Definition arrived_so_far (s : state) : nat := served s + gone s + w s + n s + lv s.
Lemma notify_count s : arrived_so_far (notify s) = arrived_so_far s.
Proof. unfold notify, arrived_so_far. destruct (w s) as [|w'] eqn:E; cbn [served gone w n lv]; lia. Qed.
