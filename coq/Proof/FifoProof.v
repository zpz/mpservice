(* Safety of fifo_stream / Parmapper (Model/FifoStream.v): look-ahead and concurrency bounds (C08), outputs in input order
   (C01). The step functions are restated as relations: an edge of a thread goes from its old pc to its new pc and to
   the state [s0] in which everything but that pc is updated, one constructor per transition, and [trans] sets the pc.
   Every invariant of the machine, here and in FifoComplete, FifoCalls and FifoLive, is proved by cases on [trans] with
   the state a variable, so what a transition leaves alone is closed by [exact] up to conversion. The relations forget
   the event. *)
From MpV Require Import Lib.Tac Lib.Conc Lib.ListFacts Model.FifoStream.
Open Scope nat_scope.

Definition is_ok (r : res) : bool := match r with Ok _ => true | Err _ => false end.

(* premises are named after the component they read. In [trans]: Ef (fp), Ec (cp), Ej (pp) give the mover's pc and St is
   its edge. In the edges: Eq (q), Er (rest), Et (to_stop), Eu (futs), Ew (workq), Ep (the preprocessor), Ere / Eok
   (return_exc), Ea (after_recv), Est (the future's state), and Ef again for the join's guard in C_join / C_join_dead *)
Inductive fedge (g : cfg) (s : state) : fpc -> fpc -> state -> Prop :=
| F_end (Er : rest s = []) : fedge g s FNext FPutEnd s
| F_pull x r (Er : rest s = SData x :: r) :
    fedge g s FNext (FChk (pulled s)) (with_pulled (with_rest s r) (S (pulled s)))
| F_raise e r (Er : rest s = SRaise e :: r) : fedge g s FNext (FPutExc e) (with_rest s r)
| F_die e r (Er : rest s = SRaiseBase e :: r) : fedge g s FNext (FDead e) (with_rest s r)
| F_stopped i (Et : to_stop s = true) : fedge g s (FChk i) FPutEnd (with_dropped s (S (dropped s)))
| F_plain i (Et : to_stop s = false) (Ep : pre g = None) : fedge g s (FChk i) (FSubmit i (val g i)) s
| F_to_pre i p (Et : to_stop s = false) (Ep : pre g = Some p) : fedge g s (FChk i) (FPre i) s
| F_pre i xx (Ep : pre_of g (val g i) = PreOk xx) : fedge g s (FPre i) (FSubmit i xx) s
| F_reject i e (Ep : pre_of g (val g i) = PreErr e) :
    fedge g s (FPre i) (FPut i) (with_futs s (futs s ++ [FFin (Err e)]))
| F_submit i xx :
    fedge g s (FSubmit i xx) (FPut i) (with_workq (with_futs s (futs s ++ [FPending])) (workq s ++ [i]))
| F_put i (Eq : qfull g s = false) : fedge g s (FPut i) FNext (with_q s (q s ++ [Task i]))
| F_put_exc e (Eq : qfull g s = false) : fedge g s (FPutExc e) FDone (with_q s (q s ++ [QExc e]))
| F_put_end (Eq : qfull g s = false) : fedge g s FPutEnd FDone (with_q s (q s ++ [QEnd])).

Inductive cedge (g : cfg) (s : state) : cpc -> cpc -> state -> Prop :=
| C_start : cedge g s CStart CGet (with_fp s FNext)
| C_get i q' (Eq : q s = Task i :: q') : cedge g s CGet (CWait i) (with_q s q')
| C_get_end q' (Eq : q s = QEnd :: q') : cedge g s CGet (CDrainChk Completed) (with_q s q')
| C_get_exc x q' (Eq : q s = QExc x :: q') : cedge g s CGet (CSetStop (Raised x)) (with_q s q')
| C_wait i r (Eu : nth_error (futs s) i = Some (FFin r)) (Eok : return_exc g = false -> is_ok r = true) :
    cedge g s (CWait i) (CYield i r) s
| C_wait_err i x (Eu : nth_error (futs s) i = Some (FFin (Err x))) (Ere : return_exc g = false) :
    cedge g s (CWait i) (CSetStop (Raised x)) (with_dropped s (S (dropped s)))
| C_yield i r (Ea : after_recv g (S (length (received s))) = CGet) :
    cedge g s (CYield i r) CGet (with_received s (received s ++ [(i, r)]))
| C_yield_break i r (Ea : after_recv g (S (length (received s))) = CSetStop Broke) :
    cedge g s (CYield i r) (CSetStop Broke) (with_received s (received s ++ [(i, r)]))
| C_set_stop o : cedge g s (CSetStop o) (CDrainChk o) (with_stop s true)
| C_drained o (Eq : q s = []) : cedge g s (CDrainChk o) (CJoin o) s
| C_drain o (Eq : q s <> []) : cedge g s (CDrainChk o) (CDrainGet o) s
| C_drain_task o i q' (Eq : q s = Task i :: q') :
    cedge g s (CDrainGet o) (CCancel i o) (with_dropped (with_q s q') (S (dropped s)))
| C_drain_end o q' (Eq : q s = QEnd :: q') : cedge g s (CDrainGet o) (CJoin o) (with_q s q')
| C_drain_exc o x q' (Eq : q s = QExc x :: q') : cedge g s (CDrainGet o) (CJoin o) (with_q s q')
| C_cancel i o (Eu : nth_error (futs s) i = Some FPending) :
    cedge g s (CCancel i o) (CDrainChk o) (with_futs s (set_nth i FCancelled (futs s)))
| C_cancel_late i o st (Eu : nth_error (futs s) i = Some st) (Est : st <> FPending) :
    cedge g s (CCancel i o) (CDrainChk o) s
| C_join o (Ef : fp s = FDone) : cedge g s (CJoin o) (CDone o) s
| C_join_dead o e (Ef : fp s = FDead e) : cedge g s (CJoin o) (CDone (Raised e)) s.

(* P_skip and P_start are the two outcomes of Future.set_running_or_notify_cancel *)
Inductive pedge (g : cfg) (s : state) : ppc -> ppc -> state -> Prop :=
| P_take i w (Ew : workq s = i :: w) : pedge g s PIdle (PTaken i) (with_workq s w)
| P_skip i (Eu : nth_error (futs s) i = Some FCancelled) : pedge g s (PTaken i) PIdle s
| P_start i (Eu : nth_error (futs s) i = Some FPending) :
    pedge g s (PTaken i) (PRun i) (with_calls (with_futs s (set_nth i FRunning (futs s))) (calls s ++ [i]))
| P_finish i : pedge g s (PRun i) PIdle (with_futs s (set_nth i (FFin (outcome_of g i)) (futs s))).

Inductive trans (g : cfg) (s : state) : state -> Prop :=
| t_f a b s0 (Ef : fp s = a) (St : fedge g s a b s0) : trans g s (with_fp s0 b)
| t_c a b s0 (Ec : cp s = a) (St : cedge g s a b s0) : trans g s (with_cp s0 b)
| t_p j a b s0 (Ej : nth_error (pp s) j = Some a) (St : pedge g s a b s0) :
    trans g s (with_pp s0 (set_nth j b (pp s))).

Lemma after_recv_cases g n : after_recv g n = CGet \/ after_recv g n = CSetStop Broke.
Proof. unfold after_recv. destruct (stop_after g) as [k|]; [destruct (k <=? n)|]; auto. Qed.

Lemma step_trans g s l s' e : step g s l = Some (s', e) -> trans g s s'.
Proof.
  destruct l as [| |j]; cbn [step]; intros H.
  - unfold step_f, f_put in H. step_cases H; (eapply t_f; [eassumption|]); econstructor; eauto.
  - (* [congruence] closes [q s <> []] of C_drain and Est of C_cancel_late; C_drain_end and C_drain_exc have the same pcs,
       and it is by failing on the wrong item that it makes [econstructor] go on from the first to the second *)
    unfold step_c in H. step_cases H; try ((eapply t_c; [eassumption|]); econstructor; eauto; congruence).
    (* CYield: the new pc is [after_recv ..], which is one of two constructors *)
    destruct (after_recv_cases g (S (length (received s)))) as [E|E]; rewrite E; (eapply t_c; [eassumption|]);
      econstructor; eauto.
  - unfold step_p in H. step_cases H; try ((eapply t_p; [eassumption|]); econstructor; eauto).
    (* P_start: the model sets [calls] last, so the result is [with_pp (with_calls ..)] only up to conversion, which
       [econstructor] does not find *)
    refine (t_p g s j _ _ _ _ (P_start g s _ _)); eassumption.
Qed.

Lemma reach g (I : state -> Prop) :
  (forall s s', I s -> trans g s s' -> I s') -> I (init g) -> forall sched, I (run step g (init g) sched).
Proof. intros Hstep H0 sched. apply (inv_run step g I); [|exact H0]. eauto using step_trans. Qed.

Lemma reach_under g (I J : state -> Prop) :
  (forall sched, I (run step g (init g) sched)) -> (forall s s', I s -> J s -> trans g s s' -> J s') -> J (init g) ->
  forall sched, J (run step g (init g) sched).
Proof. intros HI Hstep. apply (inv_run_under step g I J); [exact HI|]. eauto using step_trans. Qed.

(* the elements in the queue ([tasks]), in the feeder's hand ([fidx]), in the consumer's hand ([cidx]) *)
Fixpoint tasks (l : list qitem) : list nat :=
  match l with
  | [] => []
  | Task i :: r => i :: tasks r
  | _ :: r => tasks r
  end.

Definition fidx (f : fpc) : list nat :=
  match f with FChk i | FPre i | FSubmit i _ | FPut i => [i] | _ => [] end.
Definition cidx (c : cpc) : list nat :=
  match c with CWait i | CYield i _ => [i] | _ => [] end.

Lemma tasks_app a b : tasks (a ++ b) = tasks a ++ tasks b.
Proof. induction a as [|[i| |e] a IH]; cbn; congruence. Qed.

Lemma tasks_le l : length (tasks l) <= length l.
Proof. induction l as [|[i| |e] l IH]; cbn; lia. Qed.

Definition is_end (it : qitem) : bool := match it with Task _ => false | _ => true end.
Definition has_end (l : list qitem) : bool := existsb is_end l.
(* an end item, if any, is the last thing in the hand-off queue *)
Fixpoint eok (l : list qitem) : bool :=
  match l with
  | [] => true
  | it :: r => if is_end it then match r with [] => true | _ => false end else eok r
  end.

Lemma has_end_snoc l it : has_end (l ++ [it]) = has_end l || is_end it.
Proof. apply existsb_snoc. Qed.

Lemma eok_snoc l it : eok l = true -> has_end l = false -> eok (l ++ [it]) = true.
Proof.
  induction l as [|h t IH]; cbn; [now destruct (is_end it)|].
  destruct (is_end h); [discriminate 2|exact IH].
Qed.

Lemma eok_tail it l : eok (it :: l) = true -> eok l = true /\ (is_end it = true -> l = []).
Proof. cbn. destruct (is_end it); [destruct l|]; easy. Qed.

(* the consumer still iterates *)
Definition phase1 (c : cpc) : bool :=
  match c with CStart | CGet | CWait _ | CYield _ _ => true | _ => false end.

(* what the consumer has been handed is, in order, the outcome of element 0, 1, 2, ... *)
Definition expected_prefix (g : cfg) (n : nat) : list (nat * res) :=
  map (fun i => (i, outcome_of g i)) (seq 0 n).

Lemma expected_prefix_length g n : length (expected_prefix g n) = n.
Proof. unfold expected_prefix. now rewrite map_length, seq_length. Qed.

Lemma expected_prefix_S g n : expected_prefix g (S n) = expected_prefix g n ++ [(n, outcome_of g n)].
Proof. unfold expected_prefix. now rewrite seq_S, map_app. Qed.

Lemma in_expected_prefix g n i r : In (i, r) (expected_prefix g n) -> r = outcome_of g i.
Proof. unfold expected_prefix. rewrite in_map_iff. now intros (j & [= -> <-] & _). Qed.

Lemma firstn_expected_prefix g a b : a <= b -> firstn a (expected_prefix g b) = expected_prefix g a.
Proof.
  intros H. unfold expected_prefix. rewrite firstn_map. f_equal.
  replace b with (a + (b - a)) by lia. rewrite seq_app, firstn_app_le, firstn_all2; rewrite ?seq_length; auto.
Qed.

Definition futs_ok (g : cfg) (fu : list fstate) : Prop :=
  forall i r, nth_error fu i = Some (FFin r) -> r = outcome_of g i.

Lemma futs_ok_snoc g fu x :
  futs_ok g fu -> (forall r, x = FFin r -> r = outcome_of g (length fu)) -> futs_ok g (fu ++ [x]).
Proof. intros H Hx i r Hn. apply nth_error_snoc_cases in Hn. destruct Hn as [[_ Hn]|[-> Hn]]; eauto. Qed.

Lemma futs_ok_set g fu n x :
  futs_ok g fu -> (forall r, x = FFin r -> r = outcome_of g n) -> futs_ok g (set_nth n x fu).
Proof. intros H Hx i r Hn. apply nth_error_upd_nth_cases in Hn. destruct Hn as [[-> Hn]|[_ Hn]]; eauto. Qed.

(* futures are created in input order, one per element that got past the stop test *)
Definition flen_ok (s : state) : Prop :=
  match fp s with
  | FChk i | FPre i | FSubmit i _ => length (futs s) = i /\ pulled s = S i
  | FPut i => length (futs s) = S i /\ pulled s = S i
  | FIdle | FNext => length (futs s) = pulled s
  | _ => True
  end.

Record Inv (g : cfg) (s : state) : Prop := {
  (* every element pulled is in exactly one place *)
  i_count : pulled s = length (received s) + length (cidx (cp s)) + length (tasks (q s)) + length (fidx (fp s))
                       + dropped s;
  i_qlen : length (q s) <= S (cap g);
  i_pp : length (pp s) = conc g;
  i_start : cp s = CStart <-> fp s = FIdle;
  i_recv : received s = expected_prefix g (length (received s));
  i_yield : forall i r, cp s = CYield i r -> r = outcome_of g i;
  i_futs : futs_ok g (futs s);
  i_flen : flen_ok s;
  i_end : has_end (q s) = true -> fp s = FDone;
  i_eok : eok (q s) = true;
  i_closed : forall o, cp s = CDone o -> f_finished s = true;
  i_order : phase1 (cp s) = true ->
            to_stop s = false /\
            map fst (received s) ++ cidx (cp s) ++ tasks (q s) ++ fidx (fp s) = seq 0 (pulled s)
}.

Lemma inv_init g : Inv g (init g).
Proof.
  constructor; cbn; auto using repeat_length; try easy.
  - lia.
  - intros [|i] r H; discriminate.
Qed.

(* else [cbn] unfolds [seq 0 (S _)] and [rewrite seq_S] finds nothing *)
Local Arguments seq : simpl never.

Lemma inv_step g s s' : Inv g s -> trans g s s' -> Inv g s'.
Proof.
  intros [Hn Hq Hp Hs Hr Hy Hf Hl He Hk Hcl Ho] Ht. destruct Ht.
  - (* feeder *)
    unfold flen_ok in *. constructor.
    + (* i_count *)
      destruct St; cbn; rewrite Ef in Hn; cbn in Hn; rewrite ?tasks_app, ?app_length; cbn; lia.
    + (* i_qlen *)
      destruct St; cbn; try exact Hq; unfold qfull in Eq; apply Nat.leb_gt in Eq; rewrite app_length; cbn; lia.
    + destruct St; exact Hp.
    + (* i_start: the feeder is not idle, before or after *)
      destruct St; cbn; (split; [intros E; apply Hs in E; congruence | discriminate]).
    + destruct St; exact Hr.
    + destruct St; exact Hy.
    + (* i_futs: the rejected element gets the future at its own index *)
      destruct St; cbn; try exact Hf; (apply futs_ok_snoc; [exact Hf|]); intros r [= <-].
      rewrite Ef in Hl. destruct Hl as [-> _]. unfold outcome_of. now rewrite Ep.
    + (* i_flen *)
      destruct St; cbn; rewrite Ef in Hl; rewrite ?app_length; cbn; lia.
    + (* i_end *)
      destruct St; cbn; rewrite ?has_end_snoc; try reflexivity; rewrite ?orb_false_r; intros E; apply He in E;
        congruence.
    + (* i_eok: the feeder is not done, so there is no end item before the one it puts *)
      assert (Hne : has_end (q s) = false)
        by (destruct (has_end (q s)); [specialize (He eq_refl); destruct St|]; congruence).
      destruct St; cbn; auto using eok_snoc.
    + (* i_closed *)
      intros o Ho'. specialize (Hcl o ltac:(destruct St; exact Ho')). unfold f_finished in Hcl.
      destruct St; rewrite Ef in Hcl; discriminate Hcl.
    + (* i_order *)
      destruct St; cbn; intros Hc; destruct (Ho Hc) as [Ht Hord]; rewrite Ef in Hord; cbn in Hord;
        try (split; [exact Ht|]); try exact Hord.
      * (* the element pulled is numbered [pulled s] *)
        rewrite seq_S, <- Hord, <- !app_assoc. reflexivity.
      * (* the stop flag is not set while the consumer iterates *)
        congruence.
      * (* a put moves the feeder's element to the back of the queue *)
        rewrite tasks_app, <- app_assoc. exact Hord.
      * rewrite tasks_app, <- app_assoc. exact Hord.
      * rewrite tasks_app, <- app_assoc. exact Hord.
  - (* consumer *)
    destruct Hs as [Hs Hs']. constructor.
    + (* i_count: the first step finds the feeder idle, with nothing in its hand *)
      clear - Hn Hs Ec St. destruct St; cbn; rewrite Ec in Hn; try rewrite Eq in *; try rewrite (Hs Ec) in Hn;
        cbn in Hn; rewrite ?app_length; cbn; lia.
    + (* i_qlen *)
      destruct St; cbn; try exact Hq; rewrite Eq in Hq; cbn in Hq; lia.
    + destruct St; exact Hp.
    + (* i_start *)
      destruct St; cbn; (split; [discriminate|]); intros E; try discriminate E; apply Hs' in E; congruence.
    + (* i_recv: by the order equation the element handed over is number [length (received s)] *)
      destruct St; cbn; try exact Hr.
      all: rewrite Ec in Ho; destruct (Ho eq_refl) as [_ Hord]; apply seq_app_nth in Hord;
        rewrite map_length in Hord.
      all: rewrite app_length, Nat.add_1_r, expected_prefix_S, <- Hr, (Hy _ _ Ec), Hord; reflexivity.
    + (* i_yield *)
      destruct St; cbn; try discriminate. intros ? ? [= <- <-]. exact (Hf _ _ Eu).
    + (* i_futs *)
      destruct St; cbn; try exact Hf. apply futs_ok_set; [exact Hf|discriminate].
    + (* i_flen *)
      unfold flen_ok in *. destruct St; cbn; rewrite ?upd_nth_length; try exact Hl. now rewrite (Hs Ec) in Hl.
    + (* i_end: an end item left after a pop was there before *)
      destruct St; cbn; try exact He; intros E; try (apply He; rewrite Eq; first [exact E | reflexivity]).
      (* C_start: the feeder is idle, hence not done *)
      apply He in E. rewrite (Hs Ec) in E. discriminate.
    + (* i_eok *)
      destruct St; cbn; try exact Hk; rewrite Eq in Hk; apply eok_tail in Hk; apply Hk.
    + (* i_closed *)
      destruct St; cbn; try discriminate; intros _ _; unfold f_finished; cbn; now rewrite Ef.
    + (* i_order *)
      destruct St; cbn; try discriminate; intros _; rewrite Ec in Ho; destruct (Ho eq_refl) as [Ht Hord];
        (split; [exact Ht|]); try rewrite Eq in Hord; try rewrite (Hs Ec) in Hord; try exact Hord.
      rewrite map_app, <- app_assoc. exact Hord.
  - (* worker: only i_futs *)
    destruct St; constructor; unfold flen_ok in *; cbn; rewrite ?upd_nth_length; try assumption.
    + apply futs_ok_set; [exact Hf|discriminate].
    + apply futs_ok_set; [exact Hf|]. now intros r [= <-].
Qed.

Lemma inv_run g sched : Inv g (run step g (init g) sched).
Proof. apply reach; [apply inv_step | apply inv_init]. Qed.

Lemma fifo_lookahead g sched : ahead (run step g (init g) sched) <= cap g + 3.
Proof.
  (* by the counting equation the look-ahead is what the consumer holds (<= 1), the tasks in the queue
     (<= cap + 1) and what the feeder holds (<= 1) *)
  pose proof (inv_run g sched) as HI. set (s := run step g (init g) sched) in *.
  pose proof (i_count _ _ HI) as Hn. pose proof (i_qlen _ _ HI) as Hq.
  unfold ahead. pose proof (tasks_le (q s)).
  assert (length (fidx (fp s)) <= 1) by (destruct (fp s); cbn; auto).
  assert (length (cidx (cp s)) <= 1) by (destruct (cp s); cbn; auto).
  lia.
Qed.

Lemma running_le_conc g sched : running (run step g (init g) sched) <= conc g.
Proof. (* [running] is a [count] by conversion *) rewrite <- (i_pp _ _ (inv_run g sched)). apply count_le_length. Qed.

Lemma closed_means_feeder_gone g sched o :
  cp (run step g (init g) sched) = CDone o -> f_finished (run step g (init g) sched) = true.
Proof. apply (i_closed _ _ (inv_run g sched)). Qed.

Lemma fifo_prefix g sched :
  let s := run step g (init g) sched in
  received s = expected_prefix g (length (received s)).
Proof. apply i_recv, inv_run. Qed.

Definition InvOk (g : cfg) (s : state) : Prop :=
  return_exc g = false ->
  Forall (fun p => is_ok (snd p) = true) (received s) /\
  (forall i r, cp s = CYield i r -> is_ok r = true).

Lemma invok_step g s s' : InvOk g s -> trans g s s' -> InvOk g s'.
Proof.
  intros H Ht Hre. destruct (H Hre) as [Hr Hy]. destruct Ht.
  - (* feeder: [received] and [cp] untouched *)
    destruct St; exact (H Hre).
  - (* consumer *)
    destruct St; cbn; (split; [try exact Hr | try discriminate]).
    + (* C_wait lets a failure through only with return_exceptions (Eok) *)
      intros ? ? [= <- <-]. auto.
    + (* C_yield *) apply Forall_snoc; [exact Hr|exact (Hy _ _ Ec)].
    + (* C_yield_break *) apply Forall_snoc; [exact Hr|exact (Hy _ _ Ec)].
  - (* worker: the same *)
    destruct St; exact (H Hre).
Qed.

Lemma invok_run g sched : InvOk g (run step g (init g) sched).
Proof. apply reach; [apply invok_step|]. split; [constructor|discriminate]. Qed.

Lemma fifo_no_exc_delivered g sched :
  return_exc g = false ->
  Forall (fun p => is_ok (snd p) = true) (received (run step g (init g) sched)).
Proof. intros Hre. apply (invok_run g sched Hre). Qed.
