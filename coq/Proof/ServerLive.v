(* C07, liveness as absence of wedged states: a state of the Server model in which no thread can move is the
   finished state. *)
From MpV Require Import Lib.Conc Lib.ListFacts Model.Server Proof.ServerProof Proof.ServerLedger.
From MpV Require Lib.Tac.
From Coq Require Import Lia.

(* the gather thread has entered its `finally` *)
Definition gfin (p : gpc) : bool := match p with GFinalPut _ | GJoin _ | GDone _ => true | _ => false end.
Definition g_sent_none (p : gpc) : bool := match p with GJoin _ | GDone _ => true | _ => false end.

(* the shutdown is a relay: M's Stop goes round the workers, M's OStop ends the gather thread, whose None ends the notifier;
   whoever has been told to stop has its token ahead of it *)
Definition Tok (s : state) : Prop :=
  (mp s <> MRun -> In Stop (q_in s) \/ exists j, nth_error (bp s) j = Some BRePut)
  /\ (mp s = MJoinG \/ mp s = MDone -> In OStop (q_out s) \/ gfin (gp s) = true)
  /\ (g_sent_none (gp s) = true -> In false (q_notify s) \/ np s = NDone).

Lemma tok_init g : Tok (init g).
Proof. split; [|split]; cbn; [congruence|intros [H|H]; discriminate|discriminate]. Qed.

Lemma in_tail {A} (x h : A) l : In x (h :: l) -> x <> h -> In x l.
Proof. intros [H|H] Hne; [congruence|exact H]. Qed.

Lemma tok_step g s s' : Tok s -> trans g s s' -> Tok s'.
Proof.
  intros HT Ht. pose proof HT as (T1 & T2 & T3). destruct Ht.
  - destruct He; try exact HT.
    split; [|exact (proj2 HT)]. intros Hr. destruct (T1 Hr) as [H|H]; [left; apply in_snoc, H|right; exact H].
  - (* an answer the gather thread takes was in front of OStop; taking OStop puts it on its way out *)
    rewrite Hg in T2, T3. split; [destruct He; exact T1|].
    destruct He; cbn [gfin g_sent_none] in *; (split; [intros Hmp; specialize (T2 Hmp)|intros Hgj]);
      cbn [mp q_out q_notify gp np set_gp set_qout set_ledger set_futs set_qn add_dropped gfin g_sent_none] in *;
      try discriminate; try exact T2; try (now right).
    + rewrite Hq in T2. destruct T2 as [T2|]; [left|discriminate]. eapply in_tail; [exact T2|discriminate].
    + left. apply in_elt.
  - (* a notification the notifier takes was in front of the None *)
    split; [destruct He; exact T1|split; [destruct He; exact T2|]].
    destruct He; intros Hgj; destruct (T3 Hgj) as [Hf|Hd]; try congruence;
      cbn [q_notify np set_np set_qn set_lock set_kp set_waiters]; auto.
    left. rewrite Hq in Hf. eapply in_tail; [exact Hf|discriminate].
  - split; [|split; [|destruct He; exact T3]].
    + (* the Stop marker goes from the queue to the worker that takes it, and back *)
      intros Hr. assert (Ht : In Stop (q_in s) \/ exists j0, nth_error (bp s) j0 = Some BRePut)
        by (apply T1; destruct He; exact Hr).
      assert (Hbp : forall v, pc <> BRePut -> (exists j0, nth_error (bp s) j0 = Some BRePut) ->
                              exists j0, nth_error (set_nth j v (bp s)) j0 = Some BRePut).
      { intros v Hp [j0 Hj0]. exists j0. rewrite nth_error_upd_nth_other; [exact Hj0|congruence]. }
      destruct He; cbn [q_in bp set_bp set_qin set_qout].
      * rewrite Hq in Ht. destruct Ht as [Ht|Ht]; [left; eapply in_tail; [exact Ht|discriminate]|right].
        apply Hbp; [discriminate|exact Ht].
      * right. eexists. eapply nth_error_upd_nth_same, Hj.
      * destruct Ht as [Ht|Ht]; [now left|right]. apply Hbp; [discriminate|exact Ht].
      * left. apply in_elt.
    + destruct He; try exact T2. intros Hmp. destruct (T2 Hmp) as [Ho|Hf]; [left; apply in_snoc, Ho|now right].
  - rewrite Hm in T1, T2. destruct He; (split; [|split; [|exact T3]]);
      cbn [mp q_in bp q_out gp set_mp set_qin set_qout]; try (intros _; left; apply in_elt).
    + (* m_stop *) intros [?|?]; discriminate.
    + (* m_forward *) intros _. apply T1. discriminate.
    + (* m_join *) intros _. apply T1. discriminate.
    + (* m_join *) intros _. apply T2. now left.
Qed.

Lemma tok_run g sched : Tok (run step g (init g) sched).
Proof. apply reach; [apply tok_step|apply tok_init]. Qed.

(* the lengths exclude the "lookup failed" cases that step_k_none, step_g_none and step_b_none report (in stuck_callers_done,
   stuck_workers_done, stuck_is_finished); a cancelled future belongs to a caller that has timed out (nobody at KWaitRes
   waits on it) *)
Definition Val (g : cfg) (s : state) : Prop :=
  length (kp s) = length (callers g) /\ length (futs s) = length (callers g)
  /\ (forall i, nth_error (futs s) i = Some FCancelled -> nth_error (kp s) i = Some (KDone TimedOut)).

Lemma val_init g : Val g (init g).
Proof.
  unfold Val, init; cbn. rewrite !repeat_length. repeat split.
  intros i H. apply nth_error_repeat_inv in H. discriminate.
Qed.

Lemma val_step g s s' : Wt s -> Val g s -> trans g s s' -> Val g s'.
Proof.
  intros HW HV Ht. pose proof HV as (L1 & L2 & C). destruct Ht.
  - destruct (kedge_results _ _ _ _ _ _ _ He) as (_ & _ & Hd & _ & Hf). apply kedge_kp in He.
    assert (L2' : length (futs s0) = length (callers g))
      by (destruct Hf as [->|[_ ->]]; rewrite ?upd_nth_length; exact L2).
    unfold Val; cbn [kp futs set_kp]. rewrite He, upd_nth_length. repeat split; try assumption.
    intros j Hj. destruct (Nat.eq_dec i j) as [<-|Hne].
    + destruct Hf as [Ef|[-> _]]; [|eapply nth_error_upd_nth_same, Hi].
      rewrite Ef in Hj. rewrite (C _ Hj) in Hi. injection Hi as <-. now destruct (Hd TimedOut).
    + rewrite nth_error_upd_nth_other by exact Hne. apply C. destruct Hf as [<-|[_ Ef]]; [exact Hj|].
      rewrite Ef, nth_error_upd_nth_other in Hj by exact Hne. exact Hj.
  - destruct He; try exact HV. unfold Val; cbn [kp futs set_gp set_futs]. rewrite upd_nth_length. repeat split; try assumption.
    (* g_set writes a result, not a cancellation *)
    intros j Hj. apply nth_error_upd_nth_cases in Hj as [[_ [=]]|[_ Hj]]. auto.
  - destruct He; try exact HV. unfold Val; cbn [kp futs set_np set_kp set_waiters].
    rewrite upd_nth_length. repeat split; try assumption.
    (* the caller woken was waiting, so its future is not a cancelled one *)
    intros j Hj. specialize (C _ Hj). rewrite nth_error_upd_nth_other; [exact C|]. intros <-.
    rewrite (woken_was_waiting s w r HW Hw) in C. discriminate.
  - destruct He; exact HV.
  - destruct He; exact HV.
Qed.

Lemma val_run g sched : Val g (run step g (init g) sched).
Proof. apply (reach_under g Wt); [apply wt_run|apply val_step|apply val_init]. Qed.

Definition stuck (g : cfg) (s : state) : Prop :=
  (forall i ex, step_k g s i ex = None) /\ step_g g s = None /\ step_n g s = None
  /\ (forall j, step_b g s j = None) /\ step_m g s = None.

Definition finished (s : state) : Prop :=
  mp s = MDone /\ (exists d, gp s = GDone d) /\ np s = NDone
  /\ (forall j p, nth_error (bp s) j = Some p -> p = BDone)
  /\ (forall i pc, nth_error (kp s) i = Some pc -> exists o, pc = KDone o).

Lemma step_k_none g s i pc :
  length (kp s) = length (callers g) -> nth_error (kp s) i = Some pc -> (forall ex, step_k g s i ex = None) ->
  match pc with
  | KLock | KNotified | KExpired => lock s <> None
  | KWaitRes => nth_error (futs s) i = Some FCancelled \/ nth_error (futs s) i = None
  | KCancel => nth_error (futs s) i = None
  | KDone _ => True
  | _ => False
  end.
Proof.
  intros L Hi Hk. pose proof (Hk false) as H0. pose proof (Hk true) as H1. unfold step_k in H0, H1. rewrite Hi in H0, H1.
  destruct (nth_error (callers g) i) as [kc|] eqn:Hc; [|apply nth_error_None in Hc; apply nth_error_lt in Hi; lia].
  destruct pc; Tac.break_match_hyp H0; try discriminate H0; Tac.break_match_hyp H1; try discriminate H1; auto; discriminate.
Qed.

Lemma step_g_none g s : step_g g s = None ->
  match gp s with
  | GGet => q_out s = []
  | GChk u _ | GSet u _ => nth_error (futs s) u = None
  | GJoin _ => np s <> NDone
  | GDone _ => True
  | _ => False
  end.
Proof. unfold step_g. intros H. Tac.break_match_hyp H; auto; discriminate. Qed.

Lemma step_n_none g s : step_n g s = None ->
  match np s with NGet => q_notify s = [] | NLock => lock s <> None | NDone => True | _ => False end.
Proof. unfold step_n. intros H. Tac.break_match_hyp H; auto; discriminate. Qed.

Lemma step_b_none g s j p : nth_error (bp s) j = Some p -> step_b g s j = None ->
  match p with BGet => q_in s = [] | BHold u => nth_error (callers g) u = None | BRePut => False | BDone => True end.
Proof. unfold step_b. intros -> H. Tac.break_match_hyp H; auto; discriminate. Qed.

Lemma step_m_none g s : step_m g s = None ->
  match mp s with
  | MRun => False
  | MWaitW => all_b_done s = false
  | MJoinG => forall d, gp s <> GDone d
  | MDone => True
  end.
Proof. unfold step_m. intros H. Tac.break_match_hyp H; auto; discriminate. Qed.

(* whoever holds the condition's lock is a thread that can move *)
Lemma stuck_lock_free g s : Lk s -> Val g s -> stuck g s -> lock s = None.
Proof.
  intros HK (L1 & _) (Hk & _ & Hn & _). destruct (lock s) eqn:El; [exfalso|reflexivity].
  destruct (lock_holder s HK) as [(i & pc & Hi & Hh)|Hp]; [congruence| |].
  - pose proof (step_k_none g s i pc L1 Hi (Hk i)) as H.
    destruct pc; try discriminate Hh; exact H.
  - apply step_n_none in Hn. destruct (np s); try discriminate Hp; exact Hn.
Qed.

Lemma stuck_callers_done g s :
  Val g s -> lock s = None -> stuck g s -> forall i pc, nth_error (kp s) i = Some pc -> exists o, pc = KDone o.
Proof.
  intros (L1 & L2 & C) Hl (Hk & _) i pc Hi.
  pose proof (step_k_none g s i pc L1 Hi (Hk i)) as H.
  assert (Hf : nth_error (futs s) i <> None) by (apply nth_error_Some; rewrite L2, <- L1; eapply nth_error_lt, Hi).
  destruct pc; try contradiction; eauto.
  destruct H as [H|H]; [|contradiction]. rewrite (C _ H) in Hi. discriminate.
Qed.

Lemma flight_is_caller g s u : InvL s -> length (kp s) = length (callers g) -> 0 < inflight u s -> u < length (callers g).
Proof.
  intros [H _] <- Hu. destruct (H u) as [He Hp]. apply nth_error_Some. unfold passed_at in Hp.
  destruct (nth_error (kp s) u); [discriminate|lia].
Qed.

Lemma stuck_workers_done g s :
  InvL s -> Val g s -> Tok s -> stuck g s -> forall j p, nth_error (bp s) j = Some p -> p = BDone.
Proof.
  intros HL (L1 & _) (T1 & _) (_ & _ & _ & Hb & Hm) j p Hj.
  apply step_m_none in Hm. assert (Hrun : mp s <> MRun) by (intros E; now rewrite E in Hm).
  pose proof (step_b_none g s j p Hj (Hb j)) as H.
  destruct (T1 Hrun) as [Hq|[j' Hj']]; [|exact (False_ind _ (step_b_none g s j' _ Hj' (Hb j')))].
  destruct p; try reflexivity; exfalso.
  - rewrite H in Hq. contradiction.
  - (* a request held by a worker is in flight, so it is some caller's *)
    apply nth_error_None in H. apply (Nat.lt_irrefl u), (Nat.lt_le_trans _ (length (callers g))); [|exact H].
    apply (flight_is_caller g s); [exact HL|exact L1|]. unfold inflight. change @cnt with @count.
    pose proof (count_pos_in (is_hold u) (bp s) (BHold u) (nth_error_In _ _ Hj) (Nat.eqb_refl u)). lia.
  - exact H.
Qed.

Lemma all_done_of s : (forall j p, nth_error (bp s) j = Some p -> p = BDone) -> all_b_done s = true.
Proof.
  intros H. unfold all_b_done. apply forallb_forall. intros p Hp. apply In_nth_error in Hp as [j Hj].
  rewrite (H _ _ Hj). reflexivity.
Qed.

Lemma stuck_is_finished g s :
  Lk s -> InvL s -> InvR g s -> Val g s -> Tok s -> stuck g s -> finished s.
Proof.
  intros HK HL (_ & _ & HG & _) HV HT Hst.
  pose proof (stuck_lock_free g s HK HV Hst) as Hl.
  pose proof (stuck_callers_done g s HV Hl Hst) as Hk.
  pose proof (stuck_workers_done g s HL HV HT Hst) as Hb.
  destruct HV as (_ & L2 & _). destruct HT as (_ & T2 & T3).
  destruct Hst as (_ & Hg & Hn & _ & Hm).
  apply step_g_none in Hg. apply step_n_none in Hn. apply step_m_none in Hm.
  (* a notifier that has been sent its None has taken it: it waits neither for the lock nor on an empty queue *)
  assert (Hnd : g_sent_none (gp s) = true -> np s = NDone).
  { intros Hj. destruct (T3 Hj) as [Hq|Hq]; [|exact Hq].
    destruct (np s); try contradiction; [rewrite Hn in Hq; contradiction|reflexivity]. }
  assert (Hmp : mp s = MJoinG \/ mp s = MDone).
  { destruct (mp s); try contradiction; auto. rewrite (all_done_of s Hb) in Hm. discriminate. }
  (* the marker the gather thread waits for is there; by gp_ok (InvR) the id it has in hand is a caller's, so its future
     exists *)
  assert (Hgp : exists d, gp s = GDone d).
  { destruct (gp s) as [|u y|u y|u y| |d|d|d] eqn:Eg; try contradiction; eauto; exfalso;
      try (destruct HG as (kc & Hc & _); apply nth_error_lt in Hc; apply nth_error_None in Hg; lia).
    - destruct (T2 Hmp) as [Hq|Hq]; [|discriminate]. rewrite Hg in Hq. contradiction.
    - exact (Hg (Hnd eq_refl)). }
  destruct Hgp as [d Hgd]. rewrite Hgd in Hnd.
  repeat split; auto; [|eauto].
  destruct Hmp as [Hj|Hd]; [|exact Hd]. rewrite Hj in Hm. destruct (Hm d Hgd).
Qed.

Theorem server_never_wedges g sched :
  stuck g (run step g (init g) sched) -> finished (run step g (init g) sched).
Proof. apply stuck_is_finished; [apply lk_run|apply invl_run|apply invr_run|apply val_run|apply tok_run]. Qed.
