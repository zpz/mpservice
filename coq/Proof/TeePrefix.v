(* Every fork of a tee receives a prefix of what the source yielded, in source order (C10). *)
From MpV Require Import Lib.Tac Lib.ListFacts Lib.Conc Model.Tee Proof.TeeProof.
Open Scope nat_scope.

Definition vals (s : state) : list Z := map bval (boxes s).
Definition L (s : state) : nat := length (boxes s).

(* between acquire and release of instream_lock *)
Definition in_cs (p : fpc) : bool :=
  match p with PA3 | PA4 | PA5 _ | PA6 _ | PA7 | PA7e _ | PB3 | PB4 | PB5 _ | PB6 _ | PB7 => true | _ => false end.
(* on the first-element path (self.next is None) *)
Definition in_a (p : fpc) : bool :=
  match p with PA2 | PA3 | PA4 | PA5 _ | PA6 _ | PA7 | PA7e _ | PA8 | PA9 => true | _ => false end.

(* Boxes are numbered in pull order: box i holds the i-th data element (vals), L s is their number. nxt k (self.next)
   is the box the fork delivers next, so its number is the number of elements the fork has received (k_pos); one more
   at PR: PC5 has done self.next = box.next and the value is not yet handed over. k_a*, k_b*: the program
   points of the first-element path (PA) and of the prefetch path (PB). *)
Record FK (s : state) (f : nat) (k : fork) : Prop := {
  k_cs : in_cs (pc k) = true -> ilock s = Some f;
  k_a : in_a (pc k) = true -> started k = false /\ nxt k = None;
  k_a4 : pc k = PA4 -> L s = 0;
  k_a5 : forall b, pc k = PA5 b \/ pc k = PA6 b -> b = 0 /\ 0 < L s;
  k_r0 : started k = false -> recv k = [];
  k_pr : forall v, pc k = PR v -> started k = true;
  k_started : started k = true -> head s <> None;
  k_nxt : forall b, nxt k = Some b -> head s <> None /\ b < L s;
  k_b4 : pc k = PB4 -> exists cur, nxt k = Some cur /\ S cur = L s;
  k_b5 : forall b, pc k = PB5 b -> exists cur, nxt k = Some cur /\ b = S cur /\ S b = L s;
  k_pos : match pc k with
          | PR v => nth_error (vals s) (length (recv k)) = Some v /\ (forall b, nxt k = Some b -> b = S (length (recv k)))
          | _ => forall b, nxt k = Some b -> b = length (recv k)
          end;
  k_prefix : recv k = firstn (length (recv k)) (vals s) /\ length (recv k) <= L s
}.

Definition pending_link (s : state) (i : nat) : Prop :=
  exists f k, nth_error (forks s) f = Some k /\ pc k = PB5 (S i) /\ nxt k = Some i.

Record Inv (s : state) : Prop := {
  i_fk : forall f k, nth_error (forks s) f = Some k -> FK s f k;
  i_h0 : forall h, head s = Some h -> h = 0 /\ 0 < L s;
  i_hn : head s = None -> L s = 0 \/ (L s = 1 /\ exists f k, nth_error (forks s) f = Some k /\ (pc k = PA5 0 \/ pc k = PA6 0));
  i_ch : forall i bx j, nth_error (boxes s) i = Some bx -> bnext bx = Some j -> j = S i /\ j < L s;
  i_tl : forall i bx, nth_error (boxes s) i = Some bx -> bnext bx = None -> S i = L s \/ pending_link s i
}.

Lemma inv_init g : Inv (init g).
Proof.
  constructor; unfold init, L, vals; cbn.
  - intros f k H. apply nth_error_In, repeat_spec in H. subst k.
    constructor; cbn; try discriminate; auto; try (intros; discriminate). intros b [H|H]; discriminate.
  - intros h H. discriminate.
  - intros _. now left.
  - intros i bx j H. destruct i; discriminate.
  - intros i bx H. destruct i; discriminate.
Qed.

Lemma L_vals s : length (vals s) = L s.
Proof. apply map_length. Qed.
Lemma L_set_fork s f k : L (set_fork s f k) = L s.
Proof. reflexivity. Qed.

(* no new box for a fork inside the critical section: the clauses for PA4, PB4 and PB5 pin L s *)
Lemma fk_frame s s' f k :
  FK s f k ->
  (exists ext, vals s' = vals s ++ ext) -> (head s <> None -> head s' <> None) ->
  (in_cs (pc k) = true -> ilock s' = Some f /\ L s' = L s) ->
  FK s' f k.
Proof.
  intros [Kcs Ka Ka4 Ka5 Kr0 Kpr Kst Knxt Kb4 Kb5 Kpos Kpre] [ext Hv] Hh Hcs.
  assert (Hle : L s <= L s') by (rewrite <- !L_vals, Hv, app_length; lia).
  assert (HL : forall p, pc k = p -> in_cs p = true -> L s' = L s) by (intros p <- Hp; apply Hcs, Hp).
  constructor; auto.
  - intros Hc. apply Hcs, Hc.
  - intros Hp. rewrite (HL _ Hp); auto.
  - intros b Hb. destruct (Ka5 b Hb). split; [assumption|lia].
  - intros b Hb. destruct (Knxt b Hb). split; [auto|lia].
  - intros Hp. rewrite (HL _ Hp); auto.
  - intros b Hp. rewrite (HL _ Hp); auto.
  - destruct (pc k); auto. destruct Kpos as [Fa Fb]. split; [|exact Fb].
    rewrite Hv, nth_error_app1 by eauto using nth_error_lt. exact Fa.
  - destruct Kpre as [Fa Fb]. split; [|lia]. rewrite Hv, firstn_app_le by (rewrite L_vals; exact Fb). exact Fa.
Qed.

Lemma fk_same s s' f k :
  ilock s' = ilock s -> vals s' = vals s -> head s' = head s -> FK s f k -> FK s' f k.
Proof.
  intros Hl Hv Hh F. apply (fk_frame s); auto.
  - exists []. rewrite Hv. apply app_nil_end.
  - now rewrite Hh.
  - intros Hc. rewrite Hl, <- !L_vals, Hv. split; [apply (k_cs _ _ _ F Hc)|reflexivity].
Qed.

Lemma nth_error_map_eq {A B} (f : A -> B) l l' i x :
  map f l' = map f l -> nth_error l' i = Some x -> exists y, nth_error l i = Some y /\ f y = f x.
Proof.
  intros Hm Hx. apply (map_nth_error f) in Hx. rewrite Hm, nth_error_map in Hx.
  destruct (nth_error l i) as [y|]; [|discriminate]. exists y. split; [reflexivity|]. now injection Hx.
Qed.

Lemma inv_frame s s' :
  forks s' = forks s -> map bval (boxes s') = map bval (boxes s) -> map bnext (boxes s') = map bnext (boxes s) ->
  head s' = head s -> ilock s' = ilock s -> Inv s -> Inv s'.
Proof.
  intros Hf Hv Hn Hh Hl [Ifk Ih0 Ihn Ich Itl].
  assert (HL : L s' = L s) by (rewrite <- !L_vals; unfold vals; now rewrite Hv).
  constructor; rewrite ?Hf, ?Hh, ?HL; auto.
  - intros f k Hk. apply (fk_same s); auto.
  - intros i bx j Hi Hj. destruct (nth_error_map_eq _ _ _ _ _ Hn Hi) as (bo & Ho & Hbo). apply (Ich i bo); congruence.
  - intros i bx Hi Hb. destruct (nth_error_map_eq _ _ _ _ _ Hn Hi) as (bo & Ho & Hbo).
    unfold pending_link. rewrite Hf. apply (Itl i bo); congruence.
Qed.

(* the side condition: the holder, if any, has left the critical section *)
Lemma inv_set_ilock s v :
  Inv s ->
  match ilock s with Some f => forall k, nth_error (forks s) f = Some k -> in_cs (pc k) = false | None => True end ->
  Inv (set_ilock s v).
Proof.
  intros [Ifk Ih0 Ihn Ich Itl] Hout. constructor; auto.
  intros f k Hk. apply (fk_frame s); auto.
  - exists []. apply app_nil_end.
  - intros Hc. rewrite (k_cs _ _ _ (Ifk _ _ Hk) Hc) in Hout. rewrite (Hout _ Hk) in Hc. discriminate.
Qed.

Lemma inv_set_head s : Inv s -> 0 < L s -> Inv (set_head s (Some 0)).
Proof.
  intros [Ifk Ih0 Ihn Ich Itl] HL. constructor; auto; try discriminate.
  - intros f k Hk. apply (fk_frame s); auto; try discriminate.
    + exists []. apply app_nil_end.
    + intros Hc. split; [apply (k_cs _ _ _ (Ifk _ _ Hk) Hc)|reflexivity].
  - intros h [= <-]. auto.
Qed.

(* self.next.next = box *)
Lemma inv_link s f k cur b bx :
  Inv s -> nth_error (forks s) f = Some k -> pc k = PB5 b -> nxt k = Some cur -> nth_error (boxes s) cur = Some bx ->
  Inv (set_boxes s (set_nth cur {| bval := bval bx; bnext := Some b; bn := bn bx; block := block bx |} (boxes s))).
Proof.
  intros HI Hk Hp Hn Hbx. set (s' := set_boxes _ _).
  destruct (k_b5 _ _ _ (i_fk _ HI _ _ Hk) _ Hp) as (c & Hc & -> & HL). assert (c = cur) by congruence. subst c.
  assert (HV : vals s' = vals s) by (eapply map_upd_nth_same; eauto).
  assert (HL' : L s' = L s) by (rewrite <- !L_vals; now rewrite HV).
  destruct HI as [Ifk Ih0 Ihn Ich Itl]. constructor; rewrite ?HL'; auto.
  - intros f' k' Hk'. apply (fk_same s); auto.
  - intros i bxi j Hi Hj. apply nth_error_upd_nth_cases in Hi as [[-> ->]|[_ Hi]]; [|eauto].
    injection Hj as <-. split; [reflexivity|lia].
  - intros i bxi Hi Hb. apply nth_error_upd_nth_cases in Hi as [[-> ->]|[_ Hi]]; [discriminate|]. apply (Itl i bxi Hi Hb).
Qed.

(* i_hn and i_tl name a fork as witness: one about to publish the first box (PA5, PA6), one about to link the box it
   has pulled (PB5). A move of such a fork keeps the role, or is made when the role has ended. *)
Lemma inv_set_fork s f k0 k' :
  Inv s -> nth_error (forks s) f = Some k0 -> FK s f k' ->
  match pc k0 with
  | PA5 b | PA6 b => head s = None -> pc k' = PA5 b \/ pc k' = PA6 b
  | PB5 _ => forall i bx, nxt k0 = Some i -> nth_error (boxes s) i = Some bx -> bnext bx <> None
  | _ => True
  end ->
  Inv (set_fork s f k').
Proof.
  intros [Ifk Ih0 Ihn Ich Itl] Ek F' Hrole. constructor; auto; cbn [set_fork forks head boxes].
  - intros f1 k Hk. apply (fk_same s); auto.
    destruct (nth_error_upd_nth_cases _ _ _ _ _ Hk) as [[-> ->]|[_ Hk']]; auto.
  - intros Hh. destruct (Ihn Hh) as [H0|[HL (f1 & k & Hk & Hp)]]; [now left|right]. split; [exact HL|].
    destruct (Nat.eq_dec f1 f) as [->|Hne].
    + exists f, k'. split; [eapply nth_error_upd_nth_same; eauto|].
      assert (k = k0) by congruence. subst k. destruct Hp as [Hp|Hp]; rewrite Hp in Hrole; auto.
    + exists f1, k. rewrite nth_error_upd_nth_other by congruence. auto.
  - intros i bx Hi Hb. destruct (Itl i bx Hi Hb) as [HL|(f1 & k & Hk & Hp & Hn)]; [now left|right].
    destruct (Nat.eq_dec f1 f) as [->|Hne].
    + exfalso. assert (k = k0) by congruence. subst k. rewrite Hp in Hrole. apply (Hrole i bx); auto.
    + exists f1, k. cbn. rewrite nth_error_upd_nth_other by congruence. auto.
Qed.

(* mutual exclusion of the source lock *)
Lemma cs_unique s f1 k1 f2 k2 :
  Inv s -> nth_error (forks s) f1 = Some k1 -> nth_error (forks s) f2 = Some k2 ->
  in_cs (pc k1) = true -> in_cs (pc k2) = true -> f1 = f2.
Proof.
  intros HI H1 H2 C1 C2.
  pose proof (k_cs _ _ _ (i_fk _ HI _ _ H1) C1). pose proof (k_cs _ _ _ (i_fk _ HI _ _ H2) C2). congruence.
Qed.

Definition publishing (p : fpc) : bool := match p with PA5 _ | PA6 _ | PB5 _ => true | _ => false end.

(* a witness of i_hn or i_tl is inside the critical section, so it would be this fork *)
Lemma no_pending s f k0 :
  Inv s -> nth_error (forks s) f = Some k0 -> in_cs (pc k0) = true -> publishing (pc k0) = false ->
  (head s = None -> L s = 0) /\ (forall i bx, nth_error (boxes s) i = Some bx -> bnext bx = None -> S i = L s).
Proof.
  intros HI Ek Hc0 Hq.
  assert (Hme : forall f1 k, nth_error (forks s) f1 = Some k -> publishing (pc k) = true -> False).
  { intros f1 k Hk Hp. assert (Hc : in_cs (pc k) = true) by (destruct (pc k); try discriminate Hp; reflexivity).
    rewrite (cs_unique _ _ _ _ _ HI Hk Ek Hc Hc0) in Hk. congruence. }
  split.
  - intros Hh. destruct (i_hn _ HI Hh) as [H0|[_ (f1 & k & Hk & Hp)]]; [exact H0|].
    exfalso. apply (Hme _ _ Hk). destruct Hp as [-> | ->]; reflexivity.
  - intros i bx Hi Hb. destruct (i_tl _ HI _ _ Hi Hb) as [H0|(f1 & k & Hk & Hp & _)]; [exact H0|].
    exfalso. apply (Hme _ _ Hk). now rewrite Hp.
Qed.

(* the fork leaves the critical section, then the source lock is released *)
Lemma inv_release s f k0 k' :
  Inv s -> nth_error (forks s) f = Some k0 -> in_cs (pc k0) = true -> publishing (pc k0) = false ->
  FK s f k' -> in_cs (pc k') = false -> Inv (set_fork (set_ilock s None) f k').
Proof.
  intros HI Ek Hc0 Hq F' Hc'. apply (inv_set_ilock (set_fork s f k')).
  - apply (inv_set_fork _ _ _ _ HI Ek F'). destruct (pc k0); try discriminate Hq; exact I.
  - cbn. rewrite (k_cs _ _ _ (i_fk _ HI _ _ Ek) Hc0). intros k Hk.
    rewrite (nth_error_upd_nth_same _ _ _ _ Ek) in Hk. now inv Hk.
Qed.

Lemma pulled_L s x r : L (pulled_state s x r) = S (L s).
Proof. unfold L. cbn. rewrite app_length. cbn. lia. Qed.
Lemma pulled_vals s x r : vals (pulled_state s x r) = vals s ++ [x].
Proof. apply map_app. Qed.

(* the puller becomes the witness for the new box: of i_hn if it is the first (PA4), of i_tl for the box that was
   last until now (PB4) *)
Lemma inv_pull s f k0 k' x r :
  Inv s -> nth_error (forks s) f = Some k0 -> in_cs (pc k0) = true -> publishing (pc k0) = false ->
  FK (pulled_state s x r) f k' ->
  match head s with
  | None => pc k' = PA5 0
  | Some _ => exists cur, S cur = L s /\ pc k' = PB5 (L s) /\ nxt k' = Some cur
  end ->
  Inv (set_fork (pulled_state s x r) f k').
Proof.
  intros HI Ek Hc0 Hq F' Hw. destruct (no_pending _ _ _ HI Ek Hc0 Hq) as [Q1 Q2].
  assert (Hf' : nth_error (set_nth f k' (forks s)) f = Some k') by (eapply nth_error_upd_nth_same; eauto).
  constructor; rewrite ?L_set_fork, ?pulled_L; cbn [set_fork pulled_state set_boxes set_rest forks head boxes].
  - intros f1 k Hk. apply (fk_same (pulled_state s x r)); auto.
    destruct (nth_error_upd_nth_cases _ _ _ _ _ Hk) as [[-> ->]|[Hne Hk']]; [exact F'|].
    apply (fk_frame s); [apply (i_fk _ HI _ _ Hk')|exists [x]; apply pulled_vals|auto|].
    intros Hc. destruct Hne. apply (cs_unique _ _ _ _ _ HI Hk' Ek Hc Hc0).
  - intros h Hh. destruct (i_h0 _ HI _ Hh). split; [assumption|lia].
  - intros Hh. change (head s = None) in Hh. rewrite Hh in Hw. right. rewrite (Q1 Hh). eauto 6.
  - intros i bx j Hi Hj. apply nth_error_snoc_cases in Hi as [[_ Hi]|[_ ->]]; [|discriminate].
    destruct (i_ch _ HI _ _ _ Hi Hj). split; [assumption|lia].
  - intros i bx Hi Hb. apply nth_error_snoc_cases in Hi as [[Hlt Hi]|[-> _]]; [right|now left].
    pose proof (Q2 _ _ Hi Hb) as Hlast. exists f, k'. split; [exact Hf'|].
    destruct (head s); [|fold (L s) in Hlt; rewrite Q1 in Hlt by reflexivity; lia].
    destruct Hw as (cur & Hc & -> & ->). split; f_equal; lia.
Qed.

(* FK of a fork that has just moved, from FK [F] before the move: fields that do not mention what changed are
   inherited, fields about other program counters are vacuous; the goals left are what the new program counter asks
   for. The fields of [F] stay at hand as Kcs (k_cs) ... Kpre (k_prefix). *)
Ltac fk_from F :=
  destruct F as [Kcs Ka Ka4 Ka5 Kr0 Kpr Kst Knxt Kb4 Kb5 Kpos Kpre];
  cbn [pc nxt started recv in_cs in_a] in Kcs, Ka, Ka4, Ka5, Kr0, Kpr, Kst, Knxt, Kb4, Kb5, Kpos, Kpre;
  constructor; cbn [pc nxt started recv in_cs in_a]; try assumption;
  try discriminate; try (intros; discriminate); try (intros ? [?|?]; discriminate); auto 2.

(* self.next = self.head.value (PA8, PA9): a head that is set is box 0, and the fork has received nothing *)
Lemma fk_take_head s f k : Inv s -> FK s f k -> in_a (pc k) = true -> FK s f (with_nxt k (head s) PEntry).
Proof.
  intros HI F Ha. destruct (k_a _ _ _ F Ha) as [Hst Hnx]. pose proof (k_r0 _ _ _ F Hst) as Hrc.
  unfold with_nxt. fk_from F; rewrite ?Hrc; intros b Hb; destruct (i_h0 _ HI _ Hb) as [-> HL].
  - split; [congruence|exact HL].
  - reflexivity.
Qed.

Lemma inv_step g s l s' e : Inv s -> step g s l = Some (s', e) -> Inv s'.
Proof.
  intros HI Hs. destruct l as [f ex]. cbn in Hs. unfold step_f in Hs.
  destruct (nth_error (forks s) f) as [k0|] eqn:Ek; [|discriminate].
  pose proof (i_fk _ HI _ _ Ek) as F0.
  destruct (pull s) as [[[s1 got] v] exc] eqn:Ep. destruct (pull_cases _ _ _ _ _ Ep) as (done & r & _ & -> & Hb).
  destruct k0 as [nx st p rc]. unfold with_pc in Hs. cbn [pc nxt started recv] in Hs.
  step_cases Hs.
  (* by what the move does to the shared state; where the new program counter asks more of FK than fk_from gives,
     the goal is left for the bullets *)
  all: lazymatch goal with
       | |- Inv (set_fork (set_ilock _ (Some _)) _ _) =>
           assert (HI1 : Inv (set_ilock s (Some f))) by (apply inv_set_ilock; [exact HI|now destruct (ilock s)]);
           apply (inv_set_fork _ _ _ _ HI1 Ek); [fk_from (i_fk _ HI1 _ _ Ek)|exact I]
       | |- Inv (set_fork (set_ilock _ None) _ _) =>
           apply (inv_release _ _ _ _ HI Ek eq_refl eq_refl); [fk_from F0|reflexivity]
       | |- Inv (set_fork _ _ (with_nxt _ _ _)) =>
           apply (inv_set_fork _ _ _ _ HI Ek); [apply (fk_take_head _ _ _ HI F0 eq_refl)|exact I]
       | |- Inv (set_fork (set_head _ _) _ _) => idtac
       | |- Inv (set_fork (pulled_state _ _ _) _ _) => idtac
       | |- Inv (set_fork (set_boxes _ (set_nth _ (Build_box _ (Some _) _ _) _)) _ _) => idtac (* the link, PB5 -> PB6 *)
       | |- Inv (set_fork (_ _) _ _) =>
           (* the rest: window queue, source, a box's counter or lock *)
           try (eapply (inv_frame (set_fork s f _));
                [reflexivity | first [reflexivity|cbn; eapply map_upd_nth_same; [eassumption|reflexivity]] ..
                | reflexivity | reflexivity | apply (inv_set_fork _ _ _ _ HI Ek); [fk_from F0|exact I]]; fail)
       | |- _ => apply (inv_set_fork _ _ _ _ HI Ek); [try (fk_from F0; fail)|exact I]
       end.
  - (* PEntry -> PA2: the head is empty, so this fork has not started *)
    fk_from F0. intros _. split; [|reflexivity]. destruct st; [exfalso; now apply Kst|reflexivity].
  - (* PA3 -> PA4: nothing has been pulled *)
    destruct (no_pending _ _ _ HI Ek eq_refl eq_refl) as [Q _]. fk_from F0.
  - (* PA4, a data element: the first box *)
    pose proof (k_a4 _ _ _ F0 eq_refl) as HL0. destruct Hb as [_ ->]. fold (L s). rewrite HL0.
    apply (inv_pull _ _ _ _ _ _ HI Ek eq_refl eq_refl).
    + fk_from F0; destruct (Ka eq_refl) as [-> ->]; try discriminate.
      * intros b [[= <-]|[=]]. rewrite pulled_L. auto with arith.
      * rewrite Kr0 by reflexivity. cbn. auto with arith.
    + destruct (head s) eqn:Eh; [|reflexivity]. destruct (i_h0 _ HI _ Eh). lia.
  - (* PA5 -> PA6: still the witness of i_hn *)
    eapply (inv_frame (set_fork s f _)); [reflexivity..|].
    apply (inv_set_fork _ _ _ _ HI Ek); [fk_from F0|intros _; now right].
    intros b0 [[=]|[= <-]]. apply Ka5. now left.
  - (* PA6 -> PA7: the first box is published *)
    destruct (k_a5 _ _ _ F0 _ (or_intror eq_refl)) as [-> HL]. pose proof (inv_set_head _ HI HL) as HI1.
    apply (inv_set_fork _ _ _ _ HI1 Ek); [fk_from (i_fk _ HI1 _ _ Ek)|discriminate].
  - (* PB3 -> PB4: the box without successor is the last *)
    destruct (no_pending _ _ _ HI Ek eq_refl eq_refl) as [_ Q]. fk_from F0. eauto.
  - (* PB4, a data element *)
    destruct (k_b4 _ _ _ F0 eq_refl) as (cur & [= ->] & Hcur). destruct Hb as [_ ->]. fold (L s).
    apply (inv_pull _ _ _ _ _ _ HI Ek eq_refl eq_refl).
    + fk_from F0; rewrite pulled_L.
      * intros b Hn. destruct (Knxt _ Hn). auto.
      * intros b [= <-]. eauto.
      * destruct Kpre. rewrite pulled_vals, firstn_app_le by now rewrite L_vals. auto.
    + destruct (k_nxt _ _ _ F0 _ eq_refl) as [Hh _]. destruct (head s); [eauto|contradiction].
  - (* PB5 -> PB6: the link is made, the role ends *)
    match goal with H : nth_error (boxes s) _ = Some _ |- _ =>
      pose proof H as Hbx; pose proof (inv_link _ _ _ _ _ _ HI Ek eq_refl eq_refl H) as HI1 end.
    apply (inv_set_fork _ _ _ _ HI1 Ek); [fk_from (i_fk _ HI1 _ _ Ek)|].
    cbn. intros i bx [= <-] Hi. rewrite (nth_error_upd_nth_same _ _ _ _ Hbx) in Hi. now inv Hi.
  - (* PC5 -> PR *)
    match goal with H : nth_error (boxes s) _ = Some _ |- _ => rename H into Hbx end.
    destruct (k_nxt _ _ _ F0 _ eq_refl) as [Hh _]. pose proof (k_pos _ _ _ F0 _ eq_refl) as Hn. cbn in Hn.
    rewrite Hn in *.
    fk_from F0.
    + intros b' Hb'. split; [exact Hh|]. apply (i_ch _ HI _ _ _ Hbx Hb').
    + split; [unfold vals; now rewrite nth_error_map, Hbx|]. intros b' Hb'. apply (i_ch _ HI _ _ _ Hbx Hb').
  - (* PR -> PEntry *)
    fk_from F0; rewrite ?app_length, ?Nat.add_1_r; cbn [length].
    + intros Hst. rewrite (Kpr _ eq_refl) in Hst. discriminate.
    + now apply Kpos.
    + destruct Kpos as [Hv _], Kpre as [Hpre _]. rewrite (firstn_snoc_nth _ _ _ Hv), <- Hpre.
      split; [reflexivity|]. rewrite <- L_vals. eapply nth_error_lt, Hv.
Qed.

Lemma inv_run g sched : Inv (run step g (init g) sched).
Proof. apply (Conc.inv_run step g Inv); [exact (inv_step g) | apply inv_init]. Qed.

Lemma fork_prefix g sched f k :
  let s := run step g (init g) sched in
  nth_error (forks s) f = Some k -> recv k = firstn (length (recv k)) (map bval (boxes s)).
Proof. intros s Hk. apply (k_prefix _ _ _ (i_fk _ (inv_run g sched) _ _ Hk)). Qed.

Lemma fork_prefix_of_source g sched f k :
  let s := run step g (init g) sched in
  nth_error (forks s) f = Some k ->
  exists consumed, src g = consumed ++ rest s /\ recv k = firstn (length (recv k)) (datas_all consumed).
Proof.
  intros s Hk. destruct (source_pulled_once g sched) as (_ & consumed & Hsrc & Hv).
  exists consumed. split; [exact Hsrc|]. rewrite <- Hv. exact (fork_prefix g sched f k Hk).
Qed.
