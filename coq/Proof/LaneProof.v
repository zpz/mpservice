(* Model/Lane.v, C01 / C05 / C08: SingleLane is a linearizable bounded FIFO for one writer and one reader. The two threads'
   transitions as relations (pedge, cedge), the invariant Inv re-established clause by clause, and the lane_* theorems read
   off it. *)
From MpV Require Import Lib.Tac Lib.Conc Lib.ListFacts Model.Lane.
Open Scope nat_scope.

Definition holds (p : pc) : bool :=
  match p with TChk | TWait | TAct | TNotify | TUnlock _ => true | _ => false end.

(* the pc agrees with the head of the script: TDone iff the script is over, TRead iff the head is full() / empty(), any
   other pc only inside a put (get) *)
Definition p_ok (s : state) : Prop :=
  match pp s, ps s with
  | TDone, [] => True
  | TRead, (PFull | PEmpty) :: _ => True
  | TDone, _ | TRead, _ => False
  | _, Put _ _ _ :: _ => True
  | _, _ => False
  end.
Definition c_ok (s : state) : Prop :=
  match cp s, cs s with
  | TDone, [] => True
  | TRead, (CFull | CEmpty) :: _ => True
  | TDone, _ | TRead, _ => False
  | _, Get _ _ :: _ => True
  | _, _ => False
  end.

Definition mutex_ok (s : state) : Prop :=
  match mutex s with
  | None => holds (pp s) = false /\ holds (cp s) = false
  | Some t => (t = T_P /\ holds (pp s) = true /\ holds (cp s) = false)
              \/ (t = T_C /\ holds (pp s) = false /\ holds (cp s) = true)
  end.

(* the premises of Inv test a pc as a boolean, so that once the pc is known they compute to [false = true] *)
Definition is_pc (a b : pc) : bool :=
  match a, b with
  | TLock, TLock | TChk, TChk | TWait, TWait | TWaiting, TWaiting | TNotified, TNotified | TExpired, TExpired
  | TAct, TAct | TNotify, TNotify | TRead, TRead | TDone, TDone => true
  | TUnlock x, TUnlock y => Bool.eqb x y
  | _, _ => false
  end.

(* i_pok .. i_ne: the pcs agree with the scripts, the mutex and the wait flags. i_fifo .. i_hold: the linearization equations.
   i_bound .. i_pnot, i_under: what a thread past its test relies on although nothing is re-tested after a wake-up.
   i_pwt .. i_cwait: a thread in, or entering, wait() is there for a reason that still holds, or its peer is about to notify it. *)
Record Inv (g : cfg) (s : state) : Prop := {
  i_pok : p_ok s;
  i_cok : c_ok s;
  i_mutex : mutex_ok s;
  i_nf : nf_wait s = is_pc (pp s) TWaiting;
  i_ne : ne_wait s = is_pc (cp s) TWaiting;
  i_fifo : popped s ++ q s = appended s;
  i_pout : appended s = oks (p_out s) ++ p_inflight s;
  i_cout : popped s = oks (c_out s) ++ c_inflight s;
  i_hold : (c_hold s = None) <-> (is_pc (cp s) TNotify || is_pc (cp s) (TUnlock false) = false);
  i_bound : 0 < maxsize g -> length (q s) <= maxsize g;
  i_pact : 0 < maxsize g -> is_pc (pp s) TAct || is_pc (pp s) TNotified = true -> length (q s) < maxsize g;
  i_cnot : 0 < maxsize g -> is_pc (cp s) TNotify = true -> length (q s) < maxsize g;
  i_cact : is_pc (cp s) TAct || is_pc (cp s) TNotified = true -> q s <> [];
  i_pnot : is_pc (pp s) TNotify = true -> q s <> [];
  i_under : underflow s = false;
  i_pwt : is_pc (pp s) TWait = true -> 0 < maxsize g /\ maxsize g <= length (q s);
  i_cwt : is_pc (cp s) TWait = true -> q s = [];
  i_pwait : is_pc (pp s) TWaiting = true -> (0 < maxsize g /\ maxsize g <= length (q s)) \/ is_pc (cp s) TNotify = true;
  i_cwait : is_pc (cp s) TWaiting = true -> q s = [] \/ is_pc (pp s) TNotify = true
}.

Lemma is_pc_eq a b : is_pc a b = true -> a = b.
Proof. destruct a, b; try discriminate; try reflexivity. cbn. intros H. apply eqb_prop in H. now subst. Qed.

Lemma holds_excl s : mutex_ok s -> holds (pp s) && holds (cp s) = false.
Proof.
  unfold mutex_ok. destruct (mutex s); [intros [(_ & H1 & H2)|(_ & H1 & H2)]|intros [H1 H2]]; rewrite H1, H2; reflexivity.
Qed.

Lemma mutex_free s : mutex_ok s -> holds (pp s) = false -> holds (cp s) = false -> mutex s = None.
Proof. unfold mutex_ok. destruct (mutex s); [intros [(_ & H & _)|(_ & _ & H)]|reflexivity]; congruence. Qed.

Lemma not_at p x : holds p = false -> holds x = true -> is_pc p x = false.
Proof. intros Hp Hx. destruct (is_pc p x) eqn:E; [apply is_pc_eq in E; congruence|reflexivity]. Qed.

Lemma isfull_true g s : isfull g s = true -> 0 < maxsize g /\ maxsize g <= length (q s).
Proof. unfold isfull. intros H. apply andb_true_iff in H as [H1 H2]. split; [apply Nat.ltb_lt, H1|apply Nat.leb_le, H2]. Qed.

Lemma isfull_false g s : isfull g s = false <-> (0 < maxsize g -> length (q s) < maxsize g).
Proof.
  unfold isfull. destruct (Nat.ltb_spec 0 (maxsize g)), (Nat.leb_spec (maxsize g) (length (q s))); cbn;
    split; intros; try reflexivity; try assumption; try discriminate; lia.
Qed.

Lemma oks_app a b : oks (a ++ b) = oks a ++ oks b.
Proof. unfold oks. apply flat_map_app. Qed.

Lemma inv_init g : Inv g (init g).
Proof.
  constructor; unfold p_ok, c_ok, mutex_ok, p_inflight, c_inflight; cbn; intros; auto using Nat.le_0_l.
  (* the rest asks where the threads start *)
  all: destruct (pscript g) as [|[]]; try discriminate; try exact I; try reflexivity.
  all: destruct (cscript g) as [|[]]; try discriminate; try exact I; try reflexivity; now split.
Qed.

(* inv_init above needs oks to compute; below it stays folded for oks_app *)
Local Arguments oks : simpl never.

Lemma waiting_of (f : bool) p : f = is_pc p TWaiting -> f = true -> p = TWaiting.
Proof. intros H E. rewrite E in H. now apply eq_sym, is_pc_eq in H. Qed.

(* the model has no setters for these fields and writes the targets as records *)
Definition set_waits (s : state) (nf ne : bool) : state :=
  {| pp := pp s; cp := cp s; ps := ps s; cs := cs s; mutex := mutex s; q := q s; nf_wait := nf; ne_wait := ne;
     c_hold := c_hold s; p_out := p_out s; c_out := c_out s; appended := appended s; popped := popped s;
     underflow := underflow s |}.
Definition set_queue (s : state) (q' : list Z) (h : option Z) (ap pd : list Z) : state :=
  {| pp := pp s; cp := cp s; ps := ps s; cs := cs s; mutex := mutex s; q := q'; nf_wait := nf_wait s; ne_wait := ne_wait s;
     c_hold := h; p_out := p_out s; c_out := c_out s; appended := ap; popped := pd; underflow := underflow s |}.

(* [pedge g s a b s0 e]: the writer, at pc [a] in state [s], may move to pc [b] emitting [e]; [s0] is [s] after the effect of
   the move on everything but the writer's pc, and the step ends in [upd_p s0 b]. The premises are only the guards the
   invariant needs (the relation over-approximates step_p), named after what they read: Em (mutex), Ef (the test for full),
   Eq (the queue), En (the peer's wait flag), Es (the script), Er (the outcome of the operation that ends). *)
Inductive pedge (g : cfg) (s : state) : pc -> pc -> state -> event -> Prop :=
| p_lock (Em : mutex s = None) : pedge g s TLock TChk (set_mutex s (Some T_P)) (mkEv T_P OP_LOCK_ACQ 0)
| p_lock_unbounded (Em : mutex s = None) (Hm : (0 <? maxsize g) = false) :
    pedge g s TLock TAct (set_mutex s (Some T_P)) (mkEv T_P OP_LOCK_ACQ 0)
| p_full (Ef : isfull g s = true) : pedge g s TChk TWait s (mkEv T_P OP_DQ_LEN (ZofN (length (q s))))
| p_refuse : pedge g s TChk (TUnlock true) s (mkEv T_P OP_DQ_LEN (ZofN (length (q s))))
| p_room (Ef : isfull g s = false) : pedge g s TChk TAct s (mkEv T_P OP_DQ_LEN (ZofN (length (q s))))
| p_wait : pedge g s TWait TWaiting (set_waits (set_mutex s None) true (ne_wait s)) (mkEv T_P OP_COND_WAIT 0)
| p_expire : pedge g s TWaiting TExpired (set_waits s false (ne_wait s)) (mkEv T_P OP_COND_EXPIRE 0)
| p_woken (Em : mutex s = None) : pedge g s TNotified TAct (set_mutex s (Some T_P)) (mkEv T_P OP_COND_WOKE 1)
| p_expired (Em : mutex s = None) :
    pedge g s TExpired (TUnlock true) (set_mutex s (Some T_P)) (mkEv T_P OP_COND_WOKE 0)
| p_append x b t r (Es : ps s = Put x b t :: r) :
    pedge g s TAct TNotify (set_queue s (q s ++ [x]) (c_hold s) (appended s ++ [x]) (popped s))
      (mkEv T_P OP_APPEND x)
| p_notify (En : ne_wait s = true) :
    pedge g s TNotify (TUnlock false) (upd_c (set_waits s (nf_wait s) false) TNotified) (mkEv T_P OP_COND_NOTIFY 1)
| p_notify_none (En : ne_wait s = false) : pedge g s TNotify (TUnlock false) s (mkEv T_P OP_COND_NOTIFY 0)
| p_unlock raised r (Er : oks [r] = p_inflight s) :
    pedge g s (TUnlock raised) (p_start (tl (ps s))) (p_finish (set_mutex s None) r) (mkEv T_P OP_LOCK_REL 0)
| p_read r v (Er : oks [r] = p_inflight s) :
    pedge g s TRead (p_start (tl (ps s))) (p_finish s r) (mkEv T_P OP_SL_READ v).

(* Hi: step_cases rewrites [pp s] and [ps s] in it too, so that in each branch it has computed to what is in flight there,
   which is the premise Er; the script is folded back to [ps s] so that the successor is syntactically the constructor's. *)
Lemma step_p_spec g s ex s' e : step_p g s ex = Some (s', e) -> exists b s0, pedge g s (pp s) b s0 e /\ s' = upd_p s0 b.
Proof.
  unfold step_p. intros H. pose proof (eq_refl (p_inflight s)) as Hi. unfold p_inflight at 2 in Hi. step_cases H.
  all: try match goal with E : ps _ = _ |- _ => rewrite <- E end.
  all: do 2 eexists; split; [econstructor|reflexivity]; first [eassumption|symmetry; exact Hi].
Qed.

(* Two cases of step_c do not occur under the invariant and are left out: popleft on an empty queue, and a get that fails
   while it holds a value. The values [n] of the length events are free: step_c tests [q s] by a match, so after the case
   split the logged length is that of [[]] or of [v :: r]. *)
Inductive cedge (g : cfg) (s : state) : pc -> pc -> state -> event -> Prop :=
| c_lock (Em : mutex s = None) : cedge g s TLock TChk (set_mutex s (Some T_C)) (mkEv T_C OP_LOCK_ACQ 0)
| c_empty n (Eq : q s = []) : cedge g s TChk TWait s (mkEv T_C OP_DQ_LEN n)
| c_refuse n : cedge g s TChk (TUnlock true) s (mkEv T_C OP_DQ_LEN n)
| c_some n v r (Eq : q s = v :: r) : cedge g s TChk TAct s (mkEv T_C OP_DQ_LEN n)
| c_wait : cedge g s TWait TWaiting (set_waits (set_mutex s None) (nf_wait s) true) (mkEv T_C OP_COND_WAIT 0)
| c_expire : cedge g s TWaiting TExpired (set_waits s (nf_wait s) false) (mkEv T_C OP_COND_EXPIRE 0)
| c_woken (Em : mutex s = None) : cedge g s TNotified TAct (set_mutex s (Some T_C)) (mkEv T_C OP_COND_WOKE 1)
| c_expired (Em : mutex s = None) :
    cedge g s TExpired (TUnlock true) (set_mutex s (Some T_C)) (mkEv T_C OP_COND_WOKE 0)
| c_pop v r (Eq : q s = v :: r) :
    cedge g s TAct TNotify (set_queue s r (Some v) (appended s) (popped s ++ [v]))
      (mkEv T_C OP_POPLEFT v)
| c_notify (En : nf_wait s = true) :
    cedge g s TNotify (TUnlock false) (upd_p (set_waits s false (ne_wait s)) TNotified) (mkEv T_C OP_COND_NOTIFY 1)
| c_notify_none (En : nf_wait s = false) : cedge g s TNotify (TUnlock false) s (mkEv T_C OP_COND_NOTIFY 0)
| c_unlock raised r (Er : oks [r] = c_inflight s) :
    cedge g s (TUnlock raised) (c_start (tl (cs s))) (c_finish (set_mutex s None) r) (mkEv T_C OP_LOCK_REL 0)
| c_read r v (Er : oks [r] = c_inflight s) :
    cedge g s TRead (c_start (tl (cs s))) (c_finish s r) (mkEv T_C OP_SL_READ v).

Lemma step_c_spec g s ex s' e :
  Inv g s -> step_c g s ex = Some (s', e) -> exists b s0, cedge g s (cp s) b s0 e /\ s' = upd_c s0 b.
Proof.
  unfold step_c. intros HI H. pose proof (i_cact _ _ HI) as Ha. pose proof (i_hold _ _ HI) as Hh.
  pose proof (eq_refl (c_inflight s)) as Hi. unfold c_inflight at 2 in Hi. step_cases H.
  all: try match goal with E : cs _ = _ |- _ => rewrite <- E end.
  all: try (exfalso; exact (Ha eq_refl eq_refl)).
  all: try rewrite (proj2 Hh eq_refl) in Hi.
  all: do 2 eexists; split; [econstructor|reflexivity]; first [eassumption|symmetry; exact Hi].
Qed.

(* The field is, up to computation, what it was, or its premise names a pc at which the thread that moved is not now. Where
   an operation ends, that pc is computed from the rest of the script, over which the goal is split. *)
Ltac frame H :=
  cbn;
  try match goal with |- context [tl ?r] => destruct (tl r) as [|[]]; cbn end;
  try exact H; try (intros; discriminate).

Lemma inv_step_p g s a b s0 e : Inv g s -> pp s = a -> pedge g s a b s0 e -> Inv g (upd_p s0 b).
Proof.
  intros H Ep He. pose proof (holds_excl _ (i_mutex _ _ H)) as Hx.
  destruct H as [Hpok Hcok Hmx Hnf Hne Hfifo Hpout Hcout Hhold Hbound Hpact Hcnot Hcact Hpnot Hunder Hpwt Hcwt Hpwait
                 Hcwait].
  unfold p_ok, mutex_ok in *. constructor.
  - unfold p_ok. rewrite Ep in Hpok. destruct He; frame Hpok; exact I.
  - destruct He; frame Hcok. unfold c_ok in *. rewrite (waiting_of _ _ Hne En) in Hcok. exact Hcok.
  - unfold mutex_ok. rewrite Ep in Hmx, Hx. destruct He; frame Hmx.
    (* acquire: the mutex was free *)
    all: try (rewrite Em in Hmx; left; repeat split; apply Hmx).
    (* release: the reader does not hold it *)
    all: try exact (conj eq_refl Hx).
    (* notify wakes the reader, which was in wait() *)
    rewrite (waiting_of _ _ Hne En) in Hmx. exact Hmx.
  - rewrite Ep in Hnf. destruct He; frame Hnf; reflexivity.
  - destruct He; frame Hne. reflexivity.
  - destruct He; frame Hfifo. now rewrite app_assoc, Hfifo.
  - pose proof Hpout as Hf. unfold p_inflight in Hf. rewrite Ep in Hf. destruct He; frame Hf.
    (* an operation that ends reports what was in flight; the item appended is in flight *)
    all: try (rewrite oks_app, Er, app_nil_r; exact Hpout).
    rewrite Es, Hf. cbn. now rewrite app_nil_r.
  - destruct He; frame Hcout.
  - destruct He; frame Hhold. rewrite (waiting_of _ _ Hne En) in Hhold. exact Hhold.
  - (* append: there was room at TAct *)
    rewrite Ep in Hpact. destruct He; frame Hbound.
    intros Hm. rewrite app_length, Nat.add_1_r. exact (Hpact Hm eq_refl).
  - (* to TAct from TLock: there is no bound; from TChk: the test found room *)
    rewrite Ep in Hpact. destruct He; frame Hpact.
    + intros Hm'. apply Nat.ltb_lt in Hm'. congruence.
    + intros Hm' _. now apply isfull_false in Ef.
  - (* append: the reader does not hold the mutex *)
    rewrite Ep in Hx. destruct He; frame Hcnot. rewrite (not_at _ TNotify Hx eq_refl). discriminate.
  - (* after append, and still at notify, the queue is not empty *)
    rewrite Ep in Hpnot. destruct He; frame Hcact; intros _; [apply snoc_not_nil|exact (Hpnot eq_refl)].
  - rewrite Ep in Hpnot. destruct He; frame Hpnot. intros _. apply snoc_not_nil.
  - destruct He; frame Hunder.
  - (* to TWait: the test found the queue full *)
    rewrite Ep in Hpwt. destruct He; frame Hpwt. intros _. now apply isfull_true in Ef.
  - (* append, as for i_cnot *)
    rewrite Ep in Hx. destruct He; frame Hcwt. rewrite (not_at _ TWait Hx eq_refl). discriminate.
  - rewrite Ep in Hpwait, Hpwt. destruct He; frame Hpwait. intros _. left. exact (Hpwt eq_refl).
  - (* a reader in wait(): append puts the writer on its way to notify it; a notify that finds nobody registered finds the
       reader elsewhere *)
    rewrite Ep in Hcwait. destruct He; frame Hcwait.
    + now right.
    + intros Hc. rewrite Hc in Hne. congruence.
Qed.

(* mirror of inv_step_p; the two differ only in what the peer gains at TAct: an item, or room by the bound. Reasons only
   where the argument is not the mirrored one *)
Lemma inv_step_c g s a b s0 e : Inv g s -> cp s = a -> cedge g s a b s0 e -> Inv g (upd_c s0 b).
Proof.
  intros H Ec He. pose proof (holds_excl _ (i_mutex _ _ H)) as Hx. rewrite andb_comm in Hx.
  destruct H as [Hpok Hcok Hmx Hnf Hne Hfifo Hpout Hcout Hhold Hbound Hpact Hcnot Hcact Hpnot Hunder Hpwt Hcwt Hpwait
                 Hcwait].
  unfold c_ok, mutex_ok in *. constructor.
  - destruct He; frame Hpok. unfold p_ok in *. rewrite (waiting_of _ _ Hnf En) in Hpok. exact Hpok.
  - unfold c_ok. rewrite Ec in Hcok. destruct He; frame Hcok; exact I.
  - unfold mutex_ok. rewrite Ec in Hmx, Hx. destruct He; frame Hmx.
    all: try (rewrite Em in Hmx; right; repeat split; apply Hmx).
    all: try exact (conj Hx eq_refl).
    rewrite (waiting_of _ _ Hnf En) in Hmx. exact Hmx.
  - destruct He; frame Hnf. reflexivity.
  - rewrite Ec in Hne. destruct He; frame Hne; reflexivity.
  - destruct He; frame Hfifo. rewrite Eq in Hfifo. now rewrite <- app_assoc.
  - destruct He; frame Hpout. unfold p_inflight in *. rewrite (waiting_of _ _ Hnf En) in Hpout. exact Hpout.
  - rewrite Ec in Hhold. destruct He; frame Hcout.
    all: try (rewrite oks_app, Er, app_nil_r; exact Hcout).
    (* the reader held nothing before it popped *)
    unfold c_inflight in Hcout. rewrite (proj2 Hhold eq_refl) in Hcout. now rewrite Hcout, app_nil_r.
  - rewrite Ec in Hhold. destruct He; frame Hhold; split; (discriminate || reflexivity).
  - destruct He; frame Hbound.
    intros Hm. specialize (Hbound Hm). rewrite Eq in Hbound. exact (Nat.lt_le_incl _ _ Hbound).
  - (* after popleft, and still at notify, the bound leaves room *)
    rewrite Ec in Hcnot. destruct He; frame Hpact; intros Hm _.
    + specialize (Hbound Hm). rewrite Eq in Hbound. exact Hbound.
    + exact (Hcnot Hm eq_refl).
  - rewrite Ec in Hcnot. destruct He; frame Hcnot.
    intros Hm _. specialize (Hbound Hm). rewrite Eq in Hbound. exact Hbound.
  - rewrite Ec in Hcact. destruct He; frame Hcact. intros _. rewrite Eq. discriminate.
  - rewrite Ec in Hx. destruct He; frame Hpnot. rewrite (not_at _ TNotify Hx eq_refl). discriminate.
  - destruct He; frame Hunder.
  - rewrite Ec in Hx. destruct He; frame Hpwt. rewrite (not_at _ TWait Hx eq_refl). discriminate.
  - rewrite Ec in Hcwt. destruct He; frame Hcwt. intros _. exact Eq.
  - rewrite Ec in Hpwait. destruct He; frame Hpwait.
    + now right.
    + intros Hc. rewrite Hc in Hnf. congruence.
  - rewrite Ec in Hcwait, Hcwt. destruct He; frame Hcwait. intros _. left. exact (Hcwt eq_refl).
Qed.

Lemma inv_step g s l s' e : Inv g s -> step g s l = Some (s', e) -> Inv g s'.
Proof.
  intros H Hs. destruct l as [ex|ex]; cbn in Hs.
  - destruct (step_p_spec _ _ _ _ _ Hs) as (b & s0 & He & ->). exact (inv_step_p _ _ _ _ _ _ H eq_refl He).
  - destruct (step_c_spec _ _ _ _ _ H Hs) as (b & s0 & He & ->). exact (inv_step_c _ _ _ _ _ _ H eq_refl He).
Qed.

Lemma inv_run g sched : Inv g (run step g (init g) sched).
Proof. apply (Conc.inv_run step g (Inv g)); [exact (inv_step g)|apply inv_init]. Qed.

Theorem lane_fifo g sched :
  let s := run step g (init g) sched in
  oks (c_out s) ++ c_inflight s ++ q s = oks (p_out s) ++ p_inflight s.
Proof.
  intros s. pose proof (inv_run g sched) as H. fold s in H.
  rewrite <- (i_pout _ _ H), <- (i_fifo _ _ H), (i_cout _ _ H), app_assoc. reflexivity.
Qed.

Theorem lane_bound g sched : 0 < maxsize g -> length (q (run step g (init g) sched)) <= maxsize g.
Proof. apply (i_bound _ _ (inv_run g sched)). Qed.

Theorem lane_no_underflow g sched : underflow (run step g (init g) sched) = false.
Proof. apply (i_under _ _ (inv_run g sched)). Qed.

Theorem lane_mutual_exclusion g sched :
  let s := run step g (init g) sched in holds (pp s) && holds (cp s) = false.
Proof. apply holds_excl, (i_mutex _ _ (inv_run g sched)). Qed.

Theorem lane_no_lost_wakeup g sched :
  let s := run step g (init g) sched in
  (pp s = TWaiting -> (0 < maxsize g /\ maxsize g <= length (q s)) \/ cp s = TNotify) /\
  (cp s = TWaiting -> q s = [] \/ pp s = TNotify).
Proof.
  intros s. pose proof (inv_run g sched) as H. fold s in H. split; intros Hw.
  - destruct (i_pwait _ _ H) as [Hx|Hx]; [now rewrite Hw|now left|right; now apply is_pc_eq].
  - destruct (i_cwait _ _ H) as [Hx|Hx]; [now rewrite Hw|now left|right; now apply is_pc_eq].
Qed.

Lemma step_p_none g s : p_ok s -> step_p g s false = None ->
  holds (pp s) = false /\ (pp s = TDone \/ pp s = TWaiting \/ mutex s <> None).
Proof.
  unfold p_ok, step_p. destruct (ps s) as [|[] ?], (pp s); try contradiction; intros _ H; auto.
  all: break_match_hyp H; try discriminate H.
  all: split; [reflexivity|right; right; discriminate].
Qed.

Lemma step_c_none g s : c_ok s -> step_c g s false = None ->
  holds (cp s) = false /\ (cp s = TDone \/ cp s = TWaiting \/ mutex s <> None).
Proof.
  unfold c_ok, step_c. destruct (cs s) as [|[] ?], (cp s); try contradiction; intros _ H; auto.
  all: break_match_hyp H; try discriminate H.
  all: split; [reflexivity|right; right; discriminate].
Qed.

Theorem lane_not_wedged g sched : wedged g (run step g (init g) sched) = false.
Proof.
  pose proof (inv_run g sched) as H. remember (run step g (init g) sched) as s eqn:Es. clear Es.
  unfold wedged, can_move. cbn [step].
  destruct (step_p g s false) eqn:P1; [reflexivity|]. destruct (step_p g s true); [reflexivity|].
  destruct (step_c g s false) eqn:C1; [reflexivity|]. destruct (step_c g s true); [reflexivity|]. cbn.
  destruct (step_p_none g s (i_pok _ _ H) P1) as [Hp Hp'], (step_c_none g s (i_cok _ _ H) C1) as [Hc Hc'].
  (* neither holds the mutex, so it is free, and each thread has finished or sits in wait() *)
  pose proof (mutex_free s (i_mutex _ _ H) Hp Hc) as Hm.
  destruct Hp' as [->|[Hp'|?]]; [reflexivity| |contradiction].
  destruct Hc' as [->|[Hc'|?]]; [apply andb_false_r| |contradiction].
  (* both in wait(): the queue would be full and empty *)
  exfalso. pose proof (i_pwait _ _ H) as Hw. pose proof (i_cwait _ _ H) as Hv. rewrite Hp', Hc' in *.
  destruct (Hw eq_refl) as [[Hx Hy]|Hx]; [|discriminate]. destruct (Hv eq_refl) as [Hz|Hz]; [|discriminate].
  rewrite Hz in Hy. apply Nat.le_0_r in Hy. rewrite Hy in Hx. inversion Hx.
Qed.

Theorem lane_refines_atomic g sched l s' e :
  let s := run step g (init g) sched in
  step g s l = Some (s', e) ->
  q s' = q s
  \/ (exists x, q s' = q s ++ [x] /\ isfull g s = false /\ e_op e = OP_APPEND /\ e_val e = x)
  \/ (exists v, q s = v :: q s' /\ e_op e = OP_POPLEFT /\ e_val e = v).
Proof.
  intros s Hs. pose proof (inv_run g sched) as H. fold s in H. clearbody s. destruct l as [ex|ex]; cbn [step] in Hs.
  - destruct (step_p_spec _ _ _ _ _ Hs) as (b & s0 & He & ->). remember (pp s) as a eqn:Ep. destruct He; auto.
    (* append: there is room at TAct *)
    right; left. exists x. repeat split. apply isfull_false. intros Hm. apply (i_pact _ _ H Hm). now rewrite <- Ep.
  - destruct (step_c_spec _ _ _ _ _ H Hs) as (b & s0 & He & ->). destruct He; auto.
    right; right. exists v. repeat split. exact Eq.
Qed.
