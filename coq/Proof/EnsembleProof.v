(* Model/Ensemble.v, C02 / C04: one invariant - every message is what its place says - and one case split; that the ids
   are distinct is used at one step only (DCat). *)
From MpV Require Import Lib.Tac Lib.Conc Lib.ListFacts Model.Ensemble.
Open Scope nat_scope.

Definition all_nth {A} (P : nat -> A -> Prop) (l : list A) : Prop := forall j y, nth_error l j = Some y -> P j y.

Lemma all_nth_upd {A} (P : nat -> A -> Prop) l n x : all_nth P l -> P n x -> all_nth P (upd_nth n x l).
Proof. intros Hl Hx j y Hj. apply nth_error_upd_nth_cases in Hj. destruct Hj as [[-> ->]|[_ Hj]]; auto. Qed.

Lemma all_nth_repeat {A} (P : nat -> A -> Prop) x n : (forall j, P j x) -> all_nth P (repeat x n).
Proof. intros Hx j y Hj. now rewrite (nth_error_repeat_inv _ _ _ _ Hj). Qed.

Lemma cat_find_in u c en : cat_find u c = Some en -> In en c /\ e_uid en = u.
Proof.
  induction c as [|e r IH]; cbn; [discriminate|].
  destruct (Nat.eqb (e_uid e) u) eqn:E; intros H.
  - inv H. apply Nat.eqb_eq in E. auto.
  - destruct (IH H). auto.
Qed.

Lemma to_list_nth slots k v :
  nth_error (to_list slots) k = Some v -> nth_error slots k = Some (Some v) \/ v = Err (-1)%Z.
Proof.
  unfold to_list. rewrite nth_error_map. destruct (nth_error slots k) as [[r|]|]; cbn; intros H; inv H; eauto.
Qed.

Lemma all_filled_err_nth slots k :
  all_filled_err slots = true -> k < length slots -> exists e, nth_error slots k = Some (Some (Err e)).
Proof.
  unfold all_filled_err. revert k; induction slots as [|o r IH]; intros k H Hk; cbn in *; [lia|].
  apply andb_true_iff in H. destruct H as [H1 H2]. destruct k as [|k]; cbn.
  - destruct o as [[v|e]|]; try discriminate. eauto.
  - apply IH; [assumption|lia].
Qed.

Section WithCfg.
  Variable g : cfg.
  Hypothesis uids_distinct : NoDup (map fst (reqs g)).

  Lemma same_input u x x' : In (u, x) (reqs g) -> In (u, x') (reqs g) -> x = x'.
  Proof.
    clear - uids_distinct. induction (reqs g) as [|[a b] l IH]; cbn in *; [contradiction|].
    apply NoDup_cons_iff in uids_distinct as [Hn Hd].
    intros [E1|H1] [E2|H2]; [congruence| | |eauto]; elim Hn.
    - injection E1 as -> _. exact (in_map fst _ _ H2).
    - injection E2 as -> _. exact (in_map fst _ _ H1).
  Qed.

  (* an emitted result for uid u is built only from the members' results for u's own input
     (an unfilled slot shows up as the placeholder Err (-1)) *)
  Definition eres_ok (u : nat) (r : eres) : Prop :=
    exists x, In (u, x) (reqs g) /\
      match r with
      | EError => True
      | EList l => forall k v, nth_error l k = Some v -> v = mfun g k x \/ v = Err (-1)%Z
      end.

  (* why an EnsembleError for input x is legitimate *)
  Definition err_justified (x : Z) : Prop :=
    if fail_fast g then exists j, j < nmem g /\ is_err (mfun g j x) = true
    else forall k, k < nmem g -> is_err (mfun g k x) = true.

  Definition eres_just (u : nat) (r : eres) : Prop :=
    match r with
    | EError => exists x, In (u, x) (reqs g) /\ err_justified x
    | EList _ => True
    end.

  Definition emit_ok (u : nat) (r : eres) : Prop := eres_ok u r /\ eres_just u r.

  Definition slots_ok (x : Z) (slots : list (option res)) : Prop :=
    length slots = nmem g /\ all_nth (fun k o => forall r, o = Some r -> r = mfun g k x) slots.

  (* both theorems come from here: the dequeue thread computes its verdict from the slots of the request's own entry.
     j: any member, the witness that nmem g > 0 (for err_justified under fail_fast) *)
  Lemma verdict_ok u x j slots :
    In (u, x) (reqs g) -> j < nmem g -> slots_ok x slots ->
    emit_ok u (if all_filled_err slots then EError else EList (to_list slots)).
  Proof.
    intros Hx Hj [Hlen Hs]. destruct (all_filled_err slots) eqn:Ea; (split; [exists x; split; [exact Hx|]|]); cbn; auto.
    - (* every slot holds an error, and holds the member's own result *)
      assert (Hall : forall k, k < nmem g -> is_err (mfun g k x) = true).
      { intros k Hk. destruct (all_filled_err_nth _ k Ea) as [e He]; [lia|]. now rewrite <- (Hs _ _ He _ eq_refl). }
      exists x. split; [exact Hx|]. unfold err_justified. destruct (fail_fast g); eauto.
    - intros k v Hk. apply to_list_nth in Hk. destruct Hk as [Hr|Hv]; [left; eapply Hs; eauto|auto].
  Qed.

  Lemma fail_fast_ok u x j :
    In (u, x) (reqs g) -> j < nmem g -> fail_fast g && is_err (mfun g j x) = true -> emit_ok u EError.
  Proof.
    intros Hx Hj Hf. apply andb_true_iff in Hf. destruct Hf as [Hf He].
    split; exists x; (split; [exact Hx|]); [exact I|]. unfold err_justified. rewrite Hf. eauto.
  Qed.

  Definition msg_ok (p : nat * Z) : Prop := In p (reqs g).

  Definition out_ok (j : nat) (p : nat * res) : Prop :=
    exists x, In (fst p, x) (reqs g) /\ snd p = mfun g j x.

  Definition entry_ok (en : entry) : Prop := exists x, In (e_uid en, x) (reqs g) /\ slots_ok x (e_slots en).

  Definition ep_ok (e : epc) : Prop :=
    match e with EGet => True | ECat u x | EPut u x _ => In (u, x) (reqs g) end.

  Definition dp_ok (d : dpc) : Prop :=
    match d with
    | DCat j u y => j < nmem g /\ out_ok j (u, y)
    | DPop _ u r | DEmit _ u r => emit_ok u r
    | _ => True
    end.

  (* Every message in the system is what its place says it is: a request of the configuration, a member's result
     for the input of the request whose id it carries, a verdict computed from such results. *)
  Record Inv (s : state) : Prop := {
    i_qin : Forall msg_ok (qin s);
    i_ep : ep_ok (ep s);
    i_qins : all_nth (fun _ => Forall msg_ok) (qins s);
    i_hold : all_nth (fun _ o => forall p, o = Some p -> msg_ok p) (mhold s);
    i_len : length (qouts s) = nmem g;
    i_qouts : all_nth (fun j => Forall (out_ok j)) (qouts s);
    i_cat : Forall entry_ok (catalog s);
    i_dp : dp_ok (dp s);
    i_qout : Forall (fun p => emit_ok (fst p) (snd p)) (qout s)
  }.

  Lemma inv_init : Inv (init g).
  Proof.
    constructor; cbn; try constructor; try apply all_nth_repeat; try discriminate; auto. apply repeat_length.
  Qed.

  Lemma inv_step s l s' e : Inv s -> step g s l = Some (s', e) -> Inv s'.
  Proof.
    intros [Hqin Hep Hqins Hhold Hlen Hqouts Hcat Hdp Hqout] Hs.
    destruct l as [| |ex|j|j]; cbn in Hs; unfold step_env, step_e, step_d, step_mt, step_mp, set_dp, upd in Hs.
    - (* a request of the configuration enters qin *)
      step_cases Hs. constructor; cbn; try assumption.
      apply Forall_snoc; [assumption|]. eapply nth_error_In; eassumption.
    - step_cases Hs; constructor; cbn in *; try assumption; try exact I.
      + (* EGet: the rest of qin *) eapply Forall_inv_tail; eassumption.
      + (* EGet: the request taken *) apply (Forall_inv Hqin).
      + (* ECat: a fresh entry, no slot filled *)
        apply Forall_snoc; [exact (incl_Forall (incl_filter _ _) Hcat)|].
        exists x. repeat split; [assumption|apply repeat_length|]. now apply all_nth_repeat.
      + (* EPut (and again for the last member) *)
        apply all_nth_upd; [assumption|]. apply Forall_snoc; eauto.
      + apply all_nth_upd; [assumption|]. apply Forall_snoc; eauto.
    - destruct (dp s) as [j ae|j|j u y|j u r|j u r], ex; try discriminate Hs; cbn in Hdp.
      + step_cases Hs; constructor; cbn; try assumption; exact I.
      + (* DGet: j is a member, since the lookup succeeded *)
        step_cases Hs. constructor; cbn; try assumption.
        * now rewrite upd_nth_length.
        * apply all_nth_upd; [assumption|]. eapply Forall_inv_tail, Hqouts; eassumption.
        * split; [rewrite <- Hlen; eapply nth_error_lt; eassumption|]. eapply Forall_inv, Hqouts; eassumption.
      + destruct Hdp as (Hj & x & Hx & Hy). cbn in Hx, Hy. subst y.
        destruct (cat_find u (catalog s)) as [en|] eqn:Ec; [|step_cases Hs; constructor; cbn; try assumption; exact I].
        (* DCat files the result in the entry of its id: the entry is for the same input, ids being distinct *)
        destruct (cat_find_in _ _ _ Ec) as [Hin <-]. injection Hs as <- <-.
        pose proof (proj1 (Forall_forall _ _) Hcat _ Hin) as (x' & Hx' & Hl & Hslots).
        assert (x' = x) by (eapply same_input; eauto). subst x'.
        assert (Hnew : slots_ok x (set_nth j (Some (mfun g j x)) (e_slots en))).
        { split; [now rewrite upd_nth_length|]. apply all_nth_upd; [assumption|]. now intros r [= <-]. }
        constructor; cbn; try assumption.
        * apply Forall_map. eapply Forall_impl, Hcat. intros e0 He0.
          destruct (Nat.eqb (e_uid e0) (e_uid en)); [exists x; auto|exact He0].
        * destruct (fail_fast g && is_err _) eqn:Eff; cbn; [eapply fail_fast_ok; eauto|].
          destruct (Nat.eqb (S (e_n en)) (nmem g)); cbn; [eapply verdict_ok; eauto|exact I].
      + step_cases Hs. constructor; cbn; try assumption. exact (incl_Forall (incl_filter _ _) Hcat).
      + step_cases Hs. constructor; cbn; try assumption; [exact I|]. now apply Forall_snoc.
    - step_cases Hs. constructor; cbn; try assumption; (apply all_nth_upd; [assumption|]).
      + eapply Forall_inv_tail, Hqins; eassumption.
      + intros p [= <-]. eapply Forall_inv, Hqins; eassumption.
    - step_cases Hs. constructor; cbn; try assumption; [|now rewrite upd_nth_length|];
        (apply all_nth_upd; [assumption|]).
      + discriminate.
      + apply Forall_snoc; [eauto|]. eexists. split; [eapply Hhold; eauto|reflexivity].
  Qed.

  Lemma inv_run sched : Inv (run step g (init g) sched).
  Proof. apply (Conc.inv_run step g Inv); [exact inv_step|apply inv_init]. Qed.

  Lemma no_cross_talk sched :
    Forall (fun p => eres_ok (fst p) (snd p)) (qout (run step g (init g) sched)).
  Proof. eapply Forall_impl, (i_qout _ (inv_run sched)). now intros p []. Qed.

  Lemma ensemble_error_justified sched :
    Forall (fun p => eres_just (fst p) (snd p)) (qout (run step g (init g) sched)).
  Proof. eapply Forall_impl, (i_qout _ (inv_run sched)). now intros p []. Qed.
End WithCfg.
