(* Model/Lifecycle.v, C11: a running worker lies in the window [may_run] that the main thread's program point determines;
   the window is empty at MRaised and at MDone. *)
From MpV Require Import Lib.Tac Lib.Conc Lib.ListFacts Model.Lifecycle.
Open Scope nat_scope.

Lemma nth_error_set_nth_eq {A} n (x : A) l y :
  nth_error (set_nth n x l) n = Some y -> y = x.
Proof.
  intros H. now apply nth_error_upd_nth_cases in H as [[_ ->]|[[] _]].
Qed.

Definition running (w : list wpc) (k : nat) : Prop := exists p, nth_error w k = Some p /\ w_running p = true.

Lemma running_upd w i p k : running (set_nth i p w) k -> k = i \/ running w k.
Proof. intros (q & Hq & Hr). apply nth_error_upd_nth_cases in Hq as [[-> _]|[_ Hq]]; [auto|right; exists q; auto]. Qed.

Lemma finished_not_running w j p : nth_error w j = Some p -> w_finished p = true -> ~ running w j.
Proof. intros Hj Hf (q & Hq & Hr). rewrite Hj in Hq. injection Hq as <-. destruct p; discriminate. Qed.

(* the workers spawned so far, less those already joined *)
Definition may_run (m : mpc) (k : nat) : Prop :=
  match m with
  | MSpawn i => k < i
  | MHand i | MFailPut i => k <= i
  | MFailJoin i j => j <= k <= i
  | MFailJoinSelf i => k = i
  | MPutItem _ | MStopPut => True
  | MStopJoin j => j <= k
  | MRaised | MDone => False
  end.

Definition Inv (g : cfg) (s : state) : Prop :=
  length (wp s) = nworkers g /\ forall k, running (wp s) k -> may_run (mp s) k.

Lemma inv_init g : Inv g (init g).
Proof.
  split; [apply repeat_length|]. intros k (p & Hp & Hr). now rewrite (nth_error_repeat_inv _ _ _ _ Hp) in Hr.
Qed.

Lemma step_w_frame g s i s' e :
  step_w g s i = Some (s', e) ->
  mp s' = mp s /\ length (wp s') = length (wp s) /\ forall k, running (wp s') k -> running (wp s) k.
Proof.
  unfold step_w. intros Hs. step_cases Hs.
  all: cbn; (split; [reflexivity|split; [apply upd_nth_length|]]); intros k Hk.
  all: apply running_upd in Hk as [->|Hk]; [eexists; split; [eassumption|reflexivity]|exact Hk].
Qed.

Lemma inv_step g s l s' e : Inv g s -> step g s l = Some (s', e) -> Inv g s'.
Proof.
  intros [HL HI] Hs. destruct l as [|i]; cbn in Hs.
  - unfold step_m in Hs.
    destruct (mp s) as [i|i|i|i j|i| |n| |j|]; try discriminate Hs; step_cases Hs.
    (* most moves of the main thread leave the workers alone and widen the window, or keep it *)
    all: (split; cbn; [rewrite ?upd_nth_length; exact HL|]);
      intros k Hk; try (pose proof (HI k Hk) as Hw; cbn in Hw |- *; lia).
    (* a join has seen its worker finished: it is not running *)
    all: lazymatch goal with
         | Hp : nth_error _ ?j = Some ?p, Hf : w_finished ?p = true |- _ =>
             assert (k <> j) by (intros ->; exact (finished_not_running _ _ _ Hp Hf Hk));
             specialize (HI k Hk); cbn in HI; bool_to_prop; lia
         | |- _ => idtac
         end.
    + (* the new worker *)
      apply running_upd in Hk as [->|Hk]; [lia|]. specialize (HI k Hk). cbn in HI. lia.
    + (* no worker beyond the last *)
      specialize (HI k Hk). destruct Hk as (p & Hp%nth_error_lt & _). cbn in HI. bool_to_prop. lia.
  - destruct (step_w_frame _ _ _ _ _ Hs) as (Hm & Hl & Hr).
    split; [congruence|]. intros k Hk. rewrite Hm. apply HI, Hr, Hk.
Qed.

Lemma inv_run g sched : Inv g (run step g (init g) sched).
Proof. apply (Conc.inv_run step g (Inv g)); [exact (inv_step g)|apply inv_init]. Qed.

Lemma none_running g s : Inv g s -> (forall k, ~ may_run (mp s) k) -> any_running s = false.
Proof.
  intros [_ HI] H. apply Bool.not_true_is_false. intros Hex. apply existsb_exists in Hex as (p & Hin & Hr).
  apply In_nth_error in Hin as [k Hk]. apply (H k), HI. exists p. auto.
Qed.

Lemma start_all_or_nothing g sched :
  mp (run step g (init g) sched) = MRaised -> any_running (run step g (init g) sched) = false.
Proof. intros Hm. apply (none_running g _ (inv_run g sched)). rewrite Hm. auto. Qed.

Lemma stop_leaves_nothing g sched :
  mp (run step g (init g) sched) = MDone -> any_running (run step g (init g) sched) = false.
Proof. intros Hm. apply (none_running g _ (inv_run g sched)). rewrite Hm. auto. Qed.
