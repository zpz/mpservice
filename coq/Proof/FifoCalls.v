(* Calls of the worker function (C01): [IC] ties the history [calls] to the futures' states and to what passed the
   preprocessor. *)
From MpV Require Import Lib.Conc Lib.ListFacts Model.FifoStream Proof.FifoProof.

Definition pre_ok (g : cfg) (i : nat) : Prop := forall e, pre_of g (val g i) <> PreErr e.

(* a worker starts a call only on a pending future, and no future becomes pending again *)
Definition started (fu : list fstate) (i : nat) : Prop := exists st, nth_error fu i = Some st /\ st <> FPending.

Lemma started_snoc fu x i : started fu i -> started (fu ++ [x]) i.
Proof. intros (st & H & Hne). exists st. eauto using nth_error_snoc_some. Qed.

Lemma started_set_self fu n x y : nth_error fu n = Some y -> x <> FPending -> started (set_nth n x fu) n.
Proof. intros H Hx. exists x. eauto using nth_error_upd_nth_same. Qed.

Lemma started_set fu n x i : x <> FPending -> started fu i -> started (set_nth n x fu) i.
Proof.
  intros Hx (st & H & Hne). destruct (Nat.eq_dec n i) as [->|Hd]; [eapply started_set_self; eauto|].
  exists st. now rewrite nth_error_upd_nth_other.
Qed.

Definition pool_pre (g : cfg) (p : ppc) : Prop := match p with PIdle => True | PTaken i | PRun i => pre_ok g i end.

Record IC (g : cfg) (s : state) : Prop := {
  k_nodup : NoDup (calls s);
  k_started : forall i, In i (calls s) -> started (futs s) i;
  k_submit : forall i xx, fp s = FSubmit i xx -> pre_ok g i;
  k_workq : Forall (pre_ok g) (workq s);
  k_pool : Forall (pool_pre g) (pp s);
  k_calls : Forall (pre_ok g) (calls s)
}.

Lemma ic_init g : IC g (init g).
Proof.
  constructor; cbn; try easy; try constructor.
  apply Forall_forall. intros p Hp. apply repeat_spec in Hp. now subst.
Qed.

Lemma ic_step g s s' : IC g s -> trans g s s' -> IC g s'.
Proof.
  intros [Hn Hs Hu Hw Hl Hc] Ht. destruct Ht.
  - (* feeder *)
    constructor.
    + destruct St; exact Hn.
    + (* k_started *)
      destruct St; cbn; try exact Hs; intros i0 Hi; apply started_snoc, Hs, Hi.
    + (* k_submit *)
      destruct St; cbn; try discriminate; intros ? ? [= <- <-] e0.
      * unfold pre_of. now rewrite Ep.
      * congruence.
    + (* k_workq *)
      destruct St; cbn; try exact Hw. apply Forall_snoc; [exact Hw|exact (Hu _ _ Ef)].
    + destruct St; exact Hl.
    + destruct St; exact Hc.
  - (* consumer *)
    destruct St; constructor; cbn; try assumption.
    + (* C_start, k_submit *) discriminate.
    + (* C_cancel, k_started *) intros i0 Hi. apply started_set; [discriminate|exact (Hs _ Hi)].
  - (* worker *)
    pose proof (fun p => Forall_nth_error _ _ j p Hl) as Hj. constructor.
    + (* k_nodup *)
      destruct St; cbn; try exact Hn. apply NoDup_snoc; [exact Hn|].
      intros Hin. destruct (Hs _ Hin) as (st & E & Hne). congruence.
    + (* k_started *)
      destruct St; cbn; try exact Hs; intros i0 Hi.
      * apply in_app_or in Hi. destruct Hi as [Hi|[<-|[]]].
        -- apply started_set; [discriminate|exact (Hs _ Hi)].
        -- eapply started_set_self; [exact Eu|discriminate].
      * apply started_set; [discriminate|exact (Hs _ Hi)].
    + destruct St; exact Hu.
    + (* k_workq *)
      destruct St; cbn; try exact Hw. rewrite Ew in Hw. now inversion Hw.
    + (* k_pool *)
      cbn. apply Forall_upd_nth; [exact Hl|]. destruct St; cbn; try exact I; try exact (Hj _ Ej).
      rewrite Ew in Hw. now inversion Hw.
    + (* k_calls *)
      destruct St; cbn; try exact Hc. apply Forall_snoc; [exact Hc|exact (Hj _ Ej)].
Qed.

Lemma ic_run g sched : IC g (run step g (init g) sched).
Proof. apply reach; [apply ic_step | apply ic_init]. Qed.

Lemma calls_once g sched :
  NoDup (calls (run step g (init g) sched)) /\
  forall i, In i (calls (run step g (init g) sched)) -> forall e, pre_of g (val g i) <> PreErr e.
Proof.
  pose proof (ic_run g sched) as H.
  split; [apply H|]. exact (proj1 (Forall_forall (pre_ok g) _) (k_calls _ _ H)).
Qed.
