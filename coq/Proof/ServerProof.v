(* Model/Server.v: its transitions as relations, and the invariants behind C06 (backlog <= capacity), C07 (the gather thread
   is never killed) and C02 / C04 (every answer is the caller's own). *)
From MpV Require Import Lib.Tac Lib.Conc Lib.ListFacts Model.Server.
Open Scope nat_scope.

(* T_K i = 100 + i: cbn would unfold it into a hundred successors *)
Local Arguments T_K : simpl never.

(* A step takes one thread from [pc] to [pc'] and applies an effect to the shared fields, giving [s0]; it ends in
   [set_kp s0 i pc'] ([set_gp s0 pc'], ...). One constructor per transition of the model, with its guard. (n_notify also
   moves the woken caller to KNotified: its [s0] contains a [set_kp].) Lk, InvR / Val, InvL and InvBP first
   prove what a caller's transition does to the fields they read (kedge_lock, kedge_results, kedge_flight, kedge_nowait;
   kedge_kp for all) and only then split [trans]; Cap, Wt and Tok split [kedge] in place. *)
Inductive kedge (g : cfg) (s : state) (i : nat) (kc : caller_cfg) : kpc -> kpc -> state -> Prop :=
| k_lock (Hl : lock s = None) : kedge g s i kc KLock KCheck (set_lock s (Some (T_K i)))
| k_reject (Hfull : capacity g <= length (ledger s)) (Hbp : backpressure kc = true) :
    kedge g s i kc KCheck (KUnlock (Some false)) s
| k_full (Hfull : capacity g <= length (ledger s)) (Hbp : backpressure kc = false) : kedge g s i kc KCheck KWait s
| k_room (Hroom : length (ledger s) < capacity g) : kedge g s i kc KCheck KSet s
| k_wait : kedge g s i kc KWait KWaiting (set_waiters (set_lock s None) (waiters s ++ [i]))
| k_expire : kedge g s i kc KWaiting KExpired (set_waiters s (remove_nat i (waiters s)))
| k_woken (Hl : lock s = None) : kedge g s i kc KNotified KCheck (set_lock s (Some (T_K i)))
| k_expired (Hl : lock s = None) : kedge g s i kc KExpired (KUnlock (Some true)) (set_lock s (Some (T_K i)))
| k_set : kedge g s i kc KSet KPut (set_ledger s (ledger s ++ [i]))
| k_put : kedge g s i kc KPut (KUnlock None) (set_qin s (q_in s ++ [Req i]))
| k_unlock : kedge g s i kc (KUnlock None) KWaitRes (set_lock s None)
| k_unlock_rej : kedge g s i kc (KUnlock (Some false)) (KDone Rejected) (set_lock s None)
| k_unlock_rej_late : kedge g s i kc (KUnlock (Some true)) (KDone RejectedAfterWait) (set_lock s None)
| k_result r (Hf : nth_error (futs s) i = Some (FDone r)) : kedge g s i kc KWaitRes (KDone (Answered r)) s
| k_timeout (Hf : nth_error (futs s) i = Some FPending) : kedge g s i kc KWaitRes KCancel s
| k_cancel (Hf : nth_error (futs s) i = Some FPending) :
    kedge g s i kc KCancel (KDone TimedOut) (set_futs s (set_nth i FCancelled (futs s)))
| k_cancel_late f (Hf : nth_error (futs s) i = Some f) (Hnp : f <> FPending) :
    kedge g s i kc KCancel (KDone TimedOut) s.

Inductive gedge (s : state) : gpc -> gpc -> state -> Prop :=
| g_get u y r (Hq : q_out s = Ans u y :: r) : gedge s GGet (GPop u y) (set_qout s r)
| g_stop r (Hq : q_out s = OStop :: r) : gedge s GGet (GFinalPut false) (set_qout s r)
| g_pop u y (Hm : mem_nat u (ledger s) = true) :
    gedge s (GPop u y) (GChk u y) (set_ledger s (remove_nat u (ledger s)))
| g_drop u y (Hm : mem_nat u (ledger s) = false) : gedge s (GPop u y) GGet (add_dropped s u)
| g_cancelled u y (Hf : nth_error (futs s) u = Some FCancelled) : gedge s (GChk u y) GNotify s
| g_live u y f (Hf : nth_error (futs s) u = Some f) (Hnc : f <> FCancelled) : gedge s (GChk u y) (GSet u y) s
| g_set u y (Hf : nth_error (futs s) u = Some FPending) :
    gedge s (GSet u y) GNotify (set_futs s (set_nth u (FDone y) (futs s)))
| g_set_late u y f (Hf : nth_error (futs s) u = Some f) (Hnp : f <> FPending) : gedge s (GSet u y) GNotify s
| g_notify : gedge s GNotify GGet (set_qn s (q_notify s ++ [true]))
| g_final d : gedge s (GFinalPut d) (GJoin d) (set_qn s (q_notify s ++ [false]))
| g_join d (Hn : np s = NDone) : gedge s (GJoin d) (GDone d) s.

Inductive nedge (s : state) : npc -> npc -> state -> Prop :=
| n_get r (Hq : q_notify s = true :: r) : nedge s NGet NLock (set_qn s r)
| n_end r (Hq : q_notify s = false :: r) : nedge s NGet NDone (set_qn s r)
| n_lock (Hl : lock s = None) : nedge s NLock NNotify (set_lock s (Some T_N))
| n_idle (Hw : waiters s = []) : nedge s NNotify NUnlock s
| n_notify w r (Hw : waiters s = w :: r) : nedge s NNotify NUnlock (set_kp (set_waiters s r) w KNotified)
| n_unlock : nedge s NUnlock NGet (set_lock s None).

Inductive bedge (g : cfg) (s : state) : bpc -> bpc -> state -> Prop :=
| b_take u r (Hq : q_in s = Req u :: r) : bedge g s BGet (BHold u) (set_qin s r)
| b_stop r (Hq : q_in s = Stop :: r) : bedge g s BGet BRePut (set_qin s r)
| b_answer u kc (Hc : nth_error (callers g) u = Some kc) :
    bedge g s (BHold u) BGet (set_qout s (q_out s ++ [Ans u (serve g (arg kc))]))
| b_reput : bedge g s BRePut BDone (set_qin s (q_in s ++ [Stop])).

Inductive medge (s : state) : mpc -> mpc -> state -> Prop :=
| m_stop : medge s MRun MWaitW (set_qin s (q_in s ++ [Stop]))
| m_forward (Hb : all_b_done s = true) : medge s MWaitW MJoinG (set_qout s (q_out s ++ [OStop]))
| m_join d (Hg : gp s = GDone d) : medge s MJoinG MDone s.

Inductive trans (g : cfg) (s : state) : state -> Prop :=
| t_k i kc pc pc' s0 (Hi : nth_error (kp s) i = Some pc) (Hc : nth_error (callers g) i = Some kc)
      (He : kedge g s i kc pc pc' s0) : trans g s (set_kp s0 i pc')
| t_g pc pc' s0 (Hg : gp s = pc) (He : gedge s pc pc' s0) : trans g s (set_gp s0 pc')
| t_n pc pc' s0 (Hn : np s = pc) (He : nedge s pc pc' s0) : trans g s (set_np s0 pc')
| t_b j pc pc' s0 (Hj : nth_error (bp s) j = Some pc) (He : bedge g s pc pc' s0) : trans g s (set_bp s0 j pc')
| t_m pc pc' s0 (Hm : mp s = pc) (He : medge s pc pc' s0) : trans g s (set_mp s0 pc').

Lemma step_trans g s l s' e : step g s l = Some (s', e) -> trans g s s'.
Proof.
  destruct l as [i ex| | |j|]; cbn [step]; intros Hs.
  - unfold step_k in Hs. step_cases Hs; bool_to_prop; (eapply t_k; [eassumption..|]); econstructor; eauto; discriminate.
  - unfold step_g in Hs. step_cases Hs; (eapply t_g; [eassumption|]); econstructor; eauto; discriminate.
  - unfold step_n in Hs. step_cases Hs; (eapply t_n; [eassumption|]); econstructor; eauto.
  - unfold step_b in Hs. step_cases Hs; (eapply t_b; [eassumption|]); econstructor; eauto.
  - unfold step_m in Hs. step_cases Hs; (eapply t_m; [eassumption|]); econstructor; eauto.
Qed.

Lemma reach g (I : state -> Prop) :
  (forall s s', I s -> trans g s s' -> I s') -> I (init g) -> forall sched, I (run step g (init g) sched).
Proof. intros Hstep H0 sched. apply (inv_run step g I); [|exact H0]. eauto using step_trans. Qed.

Lemma reach_under g (I J : state -> Prop) :
  (forall sched, I (run step g (init g) sched)) -> (forall s s', I s -> J s -> trans g s s' -> J s') -> J (init g) ->
  forall sched, J (run step g (init g) sched).
Proof. intros HI Hstep. apply (inv_run_under step g I J); [exact HI|]. eauto using step_trans. Qed.

Lemma kedge_kp g s i kc pc pc' s0 : kedge g s i kc pc pc' s0 -> kp s0 = kp s.
Proof. now destruct 1. Qed.

(* for InvR and ServerLive.Val: what a caller does with its future and with the results on their way *)
Lemma kedge_results g s i kc pc pc' s0 : kedge g s i kc pc pc' s0 ->
  gp s0 = gp s /\ q_out s0 = q_out s /\ (forall o, pc <> KDone o)
  /\ (forall r, pc' = KDone (Answered r) -> nth_error (futs s) i = Some (FDone r))
  /\ (futs s0 = futs s \/ pc' = KDone TimedOut /\ futs s0 = set_nth i FCancelled (futs s)).
Proof.
  destruct 1; repeat split; auto; try discriminate. now intros r' [= <-].
Qed.

(* program points at which a caller / the notifier holds the condition's lock *)
Definition held (pc : kpc) : bool :=
  match pc with KCheck | KWait | KSet | KPut | KUnlock _ => true | _ => false end.
Definition nheld (pc : npc) : bool := match pc with NNotify | NUnlock => true | _ => false end.

(* the lock is taken exactly while one thread stands at a lock-holding point; whose tid it holds is not tracked, no law reads it *)
Definition Lk (s : state) : Prop :=
  count held (kp s) + (if nheld (np s) then 1 else 0) = if lock s then 1 else 0.

Lemma held_unique s i j pci pcj :
  Lk s -> nth_error (kp s) i = Some pci -> held pci = true -> nth_error (kp s) j = Some pcj -> held pcj = true -> i = j.
Proof. unfold Lk. intros H. apply count_one_unique. destruct (lock s); lia. Qed.

Lemma lock_holder s : Lk s -> lock s <> None ->
  (exists i pc, nth_error (kp s) i = Some pc /\ held pc = true) \/ nheld (np s) = true.
Proof.
  unfold Lk. intros H Hl. destruct (nheld (np s)); [now right|left]. apply count_pos_nth. destruct (lock s); [lia|easy].
Qed.

Lemma lk_init g : Lk (init g).
Proof. unfold Lk; cbn. now rewrite count_repeat_false. Qed.

Lemma kedge_lock g s i kc pc pc' s0 : kedge g s i kc pc pc' s0 ->
  np s0 = np s /\
  ((held pc = false /\ held pc' = true /\ lock s = None /\ lock s0 = Some (T_K i))
   \/ (held pc = true /\ held pc' = false /\ lock s0 = None)
   \/ (held pc' = held pc /\ lock s0 = lock s)).
Proof. destruct 1; cbn; auto 8. Qed.

Lemma lk_step g s s' : Lk s -> trans g s s' -> Lk s'.
Proof.
  unfold Lk. intros HL Ht. destruct Ht.
  - pose proof (kedge_kp _ _ _ _ _ _ _ He) as Ek. apply kedge_lock in He. destruct He as (En & He).
    pose proof (count_upd_nth held i pc' (kp s) pc Hi) as Hn.
    (* lia needs the goal's [set_nth] to be literally Hn's [upd_nth]; the two are convertible *)
    cbn [kp np lock set_kp]. rewrite Ek, En. change @set_nth with @upd_nth.
    destruct He as [(Hp & Hp' & Hl & ->)|[(Hp & Hp' & ->)|(Hh & ->)]].
    + (* acquire: both sides go from 0 to 1; cbv iota computes the [if]s on the lock *)
      rewrite Hp, Hp' in Hn. rewrite Hl in HL. cbv iota in *. lia.
    + (* release: both from 1 to 0 *) rewrite Hp, Hp' in Hn. destruct (lock s); cbv iota in *; lia.
    + (* neither: the count and the lock are unchanged *) rewrite Hh in Hn. lia.
  - destruct He; exact HL.
  - (* n_get, n_end, n_idle leave both sides alone; n_lock takes both from 0 to 1 *)
    revert HL. destruct He; cbn [kp np lock set_np set_qn set_lock set_kp set_waiters]; rewrite Hn, ?Hl; cbn [nheld];
      try exact (fun H => H); try lia.
    + (* n_notify: the caller woken does not get the lock yet *)
      pose proof (count_upd_nth_le held w KNotified (kp s)). change @set_nth with @upd_nth. cbn [held] in *.
      destruct (lock s); lia.
    + (* n_unlock *) destruct (lock s); lia.
  - destruct He; exact HL.
  - destruct He; exact HL.
Qed.

Lemma lk_run g sched : Lk (run step g (init g) sched).
Proof. apply reach; [apply lk_step|apply lk_init]. Qed.

Lemma remove_nat_length x l : length (remove_nat x l) <= length l.
Proof. apply (count_le_length (fun y => negb (x =? y))). Qed.

Lemma in_remove_nat x w l : In w (remove_nat x l) -> In w l /\ w <> x.
Proof.
  unfold remove_nat. intros H. apply filter_In in H. destruct H as [H1 H2]. split; [exact H1|].
  apply negb_true_iff, Nat.eqb_neq in H2. congruence.
Qed.

Lemma count_remove_nat u x l : count (Nat.eqb u) (remove_nat x l) = if Nat.eqb u x then 0 else count (Nat.eqb u) l.
Proof.
  unfold remove_nat. induction l as [|h t IH]; cbn [filter]; [now destruct (Nat.eqb u x)|].
  destruct (Nat.eqb_spec x h) as [<-|Hne]; cbn [negb]; rewrite !count_cons, IH; destruct (Nat.eqb_spec u x) as [->|]; auto.
  now rewrite (proj2 (Nat.eqb_neq x h) Hne).
Qed.

(* C06. A caller at KSet has seen room, and still has it: it holds the lock, so nobody else has added an entry since. *)
Definition Cap (g : cfg) (s : state) : Prop :=
  (forall i, nth_error (kp s) i = Some KSet -> length (ledger s) < capacity g)
  /\ length (ledger s) <= capacity g /\ max_backlog s <= capacity g.

Lemma cap_init g : Cap g (init g).
Proof. split; cbn; [|lia]. intros i H. apply nth_error_repeat_inv in H. discriminate. Qed.

Lemma cap_kp g s s0 i pc' :
  Cap g s -> kp s0 = kp s -> ledger s0 = ledger s -> max_backlog s0 = max_backlog s ->
  (pc' = KSet -> length (ledger s) < capacity g) -> Cap g (set_kp s0 i pc').
Proof.
  intros (HS & HL) Ek El Em Hn. unfold Cap; cbn [kp ledger max_backlog set_kp]. rewrite Ek, El, Em. split; [|exact HL].
  intros j Hj. apply nth_error_upd_nth_cases in Hj as [[_ Hj]|[_ Hj]]; eauto.
Qed.

Lemma cap_step g s s' : Lk s -> Cap g s -> trans g s s' -> Cap g s'.
Proof.
  intros HLk HC Ht. destruct Ht.
  - destruct He;
      try (eapply cap_kp; [exact HC|reflexivity..|first [discriminate|intros _; assumption]]).
    (* k_set: the room seen at KCheck is used; no other caller is at KSet, since this one holds the lock *)
    destruct HC as (HS & _ & HM). pose proof (HS i Hi) as Hroom. unfold Cap; cbn. rewrite app_length; cbn.
    split; [|lia]. intros j Hj. apply nth_error_upd_nth_cases in Hj as [[_ [=]]|[Hne Hj]].
    destruct (Hne (held_unique s j i KSet KSet HLk Hj eq_refl Hi eq_refl)).
  - destruct He; try exact HC.
    destruct HC as (HS & HL & HM). pose proof (remove_nat_length u (ledger s)). unfold Cap; cbn.
    split; [|lia]. intros i Hi. specialize (HS i Hi). lia.
  - destruct He; try exact HC. eapply cap_kp; [exact HC|reflexivity..|discriminate].
  - destruct He; exact HC.
  - destruct He; exact HC.
Qed.

Lemma backlog_le_capacity g sched :
  backlog (run step g (init g) sched) <= capacity g /\ max_backlog (run step g (init g) sched) <= capacity g.
Proof. exact (proj2 (reach_under g Lk (Cap g) (lk_run g) (cap_step g) (cap_init g) sched)). Qed.

(* C07: the only way into the gather thread's `finally` is the stop marker *)
Definition InvG (s : state) : Prop :=
  match gp s with GFinalPut d | GJoin d | GDone d => d = false | _ => True end.

Lemma invg_step g s s' : InvG s -> trans g s s' -> InvG s'.
Proof.
  unfold InvG. intros H Ht. destruct Ht.
  - destruct He; exact H.
  - rewrite Hg in H. destruct He; cbn; auto.
  - destruct He; exact H.
  - destruct He; exact H.
  - destruct He; exact H.
Qed.

Lemma gather_never_dies g sched : gather_dead (run step g (init g) sched) = false.
Proof.
  assert (H : InvG (run step g (init g) sched)) by (apply reach; [apply invg_step|exact I]).
  unfold InvG in H. unfold gather_dead. destruct (gp (run step g (init g) sched)); try reflexivity; now subst.
Qed.

(* the default is never met by an answered caller (own_result) *)
Definition result_of (g : cfg) (u : nat) : res :=
  match nth_error (callers g) u with Some kc => serve g (arg kc) | None => Ok 0%Z end.

(* stronger than [y = result_of g u]: it also says that u is a caller, which ServerLive.stuck_is_finished reads off gp_ok (the
   future the gather thread looks up exists) *)
Definition own (g : cfg) (u : nat) (y : res) : Prop :=
  exists kc, nth_error (callers g) u = Some kc /\ y = serve g (arg kc).

Lemma own_result g u y : own g u y -> y = result_of g u.
Proof. intros (kc & Hc & ->). unfold result_of. now rewrite Hc. Qed.

Definition gp_ok (g : cfg) (p : gpc) : Prop :=
  match p with GPop u y | GChk u y | GSet u y => own g u y | _ => True end.

(* C02 / C04 / C07: the result for caller u's input travels under the id u, from the worker's answer through the output
   queue and the gather thread into future u, and from there to caller u *)
Definition InvR (g : cfg) (s : state) : Prop :=
  (forall i r, nth_error (futs s) i = Some (FDone r) -> own g i r)
  /\ (forall u y, In (Ans u y) (q_out s) -> own g u y)
  /\ gp_ok g (gp s)
  /\ (forall i r, nth_error (kp s) i = Some (KDone (Answered r)) -> own g i r).

Lemma invr_init g : InvR g (init g).
Proof.
  split; [|split; [|split]]; cbn; [|contradiction|exact I|]; intros i r H; apply nth_error_repeat_inv in H; discriminate.
Qed.

Lemma invr_step g s s' : InvR g s -> trans g s s' -> InvR g s'.
Proof.
  intros HR Ht. pose proof HR as (HF & HO & HG & HK). destruct Ht.
  - destruct (kedge_results _ _ _ _ _ _ _ He) as (Eg & Eo & _ & Hr & Hf). apply kedge_kp in He.
    unfold InvR; cbn [futs q_out gp kp set_kp]. rewrite He, Eg, Eo. split; [|split; [exact HO|split; [exact HG|]]].
    + intros j r Hj. destruct Hf as [Ef|[_ Ef]]; rewrite Ef in Hj; [eauto|].
      apply nth_error_upd_nth_cases in Hj as [[_ [=]]|[_ Hj]]. eauto.
    + intros j r Hj. apply nth_error_upd_nth_cases in Hj as [[-> Hj]|[_ Hj]]; eauto.
  - rewrite Hg in HG. destruct He; (split; [|split; [|split]]); cbn [futs q_out gp set_gp set_qout set_futs gp_ok];
      try assumption; try exact I.
    + (* g_get: the rest of the queue *) intros u' y' Hin. apply HO. rewrite Hq. now right.
    + (* g_get: the answer in hand *) apply HO. rewrite Hq. now left.
    + (* g_stop *) intros u' y' Hin. apply HO. rewrite Hq. now right.
    + (* g_set *) intros j r Hj. apply nth_error_upd_nth_cases in Hj as [[-> [= <-]]|[_ Hj]]; eauto.
  - destruct He; try exact HR. split; [|split; [|split]]; try assumption.
    intros j r' Hj. apply nth_error_upd_nth_cases in Hj as [[_ [=]]|[_ Hj]]. eauto.
  - destruct He; try exact HR; (split; [|split; [|split]]); try assumption;
      intros u' y' Hin; apply in_app_or in Hin as [Hin|[[= <- <-]|[]]]; eauto.
    now exists kc.
  - destruct He; try exact HR; (split; [|split; [|split]]); try assumption;
      intros u' y' Hin; apply in_app_or in Hin as [Hin|[[=]|[]]]; eauto.
Qed.

Lemma invr_run g sched : InvR g (run step g (init g) sched).
Proof. apply reach; [apply invr_step|apply invr_init]. Qed.

Lemma answers_are_own_results g sched i r :
  nth_error (kp (run step g (init g) sched)) i = Some (KDone (Answered r)) -> r = result_of g i.
Proof. intros H. apply own_result. destruct (invr_run g sched) as (_ & _ & _ & HK). eapply HK, H. Qed.
