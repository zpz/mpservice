(* C19, the clock order of a list of yields; the run that produces such a list is in EagerBatcherProof.v. *)
From MpV Require Import Model.EagerBatcher.
From Coq Require Import Lia Sorted.

(* [lo] is the clock of the previous yield *)
Fixpoint chain (g : cfg) (lo : Z) (o : list emitted) : Prop :=
  match o with
  | [] => True
  | b :: r => lo <= first_t b /\ first_t b <= etime b <= first_t b + wait g /\ chain g (etime b) r
  end.

(* the clock of the last yield of [o], [lo] if there is none *)
Fixpoint endclk (lo : Z) (o : list emitted) : Z :=
  match o with [] => lo | b :: r => endclk (etime b) r end.

Lemma chain_app g o1 : forall lo o2,
  chain g lo o1 -> chain g (endclk lo o1) o2 -> chain g lo (o1 ++ o2).
Proof.
  induction o1 as [|b r IH]; cbn; intros lo o2 Hc1 Hc2; [exact Hc2|].
  destruct Hc1 as (Ha & Hb & Hc). repeat split; try tauto. now apply IH.
Qed.

Lemma endclk_app o1 : forall lo o2, endclk lo (o1 ++ o2) = endclk (endclk lo o1) o2.
Proof. induction o1 as [|b r IH]; cbn; intros; [reflexivity|apply IH]. Qed.

Lemma chain_endclk g o : forall lo, chain g lo o -> lo <= endclk lo o.
Proof.
  induction o as [|b r IH]; cbn; intros lo H; [lia|].
  destruct H as (Ha & Hb & Hc). apply IH in Hc. lia.
Qed.

Lemma chain_wait_bound g o : forall lo, chain g lo o ->
  Forall (fun b => first_t b <= etime b <= first_t b + wait g) o.
Proof.
  induction o as [|b r IH]; cbn; intros lo H; constructor; [tauto|]. eapply IH. apply H.
Qed.

Lemma chain_sorted g o : forall lo, chain g lo o ->
  Sorted Z.le (map etime o) /\ HdRel Z.le lo (map etime o).
Proof.
  induction o as [|b r IH]; cbn; intros lo H; [split; constructor|].
  destruct H as (Ha & Hb & Hc). destruct (IH _ Hc) as [Hs Hh].
  split; constructor; try assumption. lia.
Qed.

(* the first item of each batch is obtained at or after the previous yield *)
Fixpoint starts_after (lo : Z) (o : list emitted) : Prop :=
  match o with [] => True | b :: r => lo <= first_t b /\ starts_after (etime b) r end.

Lemma chain_starts_after g o : forall lo, chain g lo o -> starts_after lo o.
Proof. induction o as [|b r IH]; cbn; intros lo H; [exact I|]. split; [tauto|]. apply IH; tauto. Qed.
