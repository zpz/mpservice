(* C06: a rejected request leaves nothing behind, and a caller using backpressure never waits. *)
From MpV Require Import Lib.Conc Lib.ListFacts Model.Server Proof.ServerProof Proof.ServerLedger.

Definition rejected_pc (pc : kpc) : bool :=
  match pc with KUnlock (Some _) | KDone Rejected | KDone RejectedAfterWait => true | _ => false end.

Lemma rejected_leaves_nothing g sched i pc :
  let s := run step g (init g) sched in
  nth_error (kp s) i = Some pc -> rejected_pc pc = true ->
  led i s = 0 /\ inflight i s = 0 /\ ~ In i (waiters s).
Proof.
  cbv zeta. intros Hi Hr.
  assert (Hp : passed pc = false)
    by (destruct pc; try discriminate Hr; try destruct rej; try destruct o; (discriminate Hr || reflexivity)).
  destruct (nothing_before_entry g sched i pc Hi Hp) as [H1 H2]. repeat split; [exact H1|exact H2|].
  intros Hin. rewrite (waiter_pc _ _ _ (wt_run g sched) Hi Hin) in *. discriminate.
Qed.

(* program points only a caller without backpressure can be at *)
Definition waits_pc (pc : kpc) : bool :=
  match pc with
  | KWait | KWaiting | KNotified | KExpired | KUnlock (Some true) | KDone RejectedAfterWait => true
  | _ => false
  end.

Definition InvBP (g : cfg) (s : state) : Prop :=
  forall i pc kc, nth_error (kp s) i = Some pc -> nth_error (callers g) i = Some kc ->
                  backpressure kc = true -> waits_pc pc = false.

(* the only way into the waiting points is the full-ledger branch taken without backpressure *)
Lemma kedge_nowait g s i kc pc pc' s0 :
  kedge g s i kc pc pc' s0 -> backpressure kc = true -> waits_pc pc = false -> waits_pc pc' = false.
Proof. destruct 1; cbn; congruence. Qed.

Lemma invbp_kp g s s0 i pc' :
  InvBP g s -> kp s0 = kp s ->
  (forall kc, nth_error (callers g) i = Some kc -> backpressure kc = true -> waits_pc pc' = false) ->
  InvBP g (set_kp s0 i pc').
Proof.
  intros H Ek Hn j pc kc Hj Hc Hb. cbn [kp set_kp] in Hj. rewrite Ek in Hj.
  apply nth_error_upd_nth_cases in Hj as [[-> ->]|[_ Hj]]; eauto.
Qed.

Lemma invbp_step g s s' : Wt s -> InvBP g s -> trans g s s' -> InvBP g s'.
Proof.
  intros HW H Ht. destruct Ht.
  - eapply invbp_kp; [exact H|eapply kedge_kp, He|]. intros kc' Hc' Hb. rewrite Hc in Hc'. injection Hc' as <-.
    eapply kedge_nowait; eauto.
  - destruct He; exact H.
  - destruct He; try exact H. eapply invbp_kp; [exact H|reflexivity|].
    (* the caller woken was waiting, so it does not use backpressure *)
    intros kc Hc Hb. specialize (H _ _ _ (woken_was_waiting s w r HW Hw) Hc Hb). discriminate H.
  - destruct He; exact H.
  - destruct He; exact H.
Qed.

Lemma invbp_run g sched : InvBP g (run step g (init g) sched).
Proof.
  apply (reach_under g Wt); [apply wt_run|apply invbp_step|].
  intros i pc kc Hi _ _. apply nth_error_repeat_inv in Hi. now subst.
Qed.

Lemma backpressure_never_waits g sched i pc kc :
  nth_error (kp (run step g (init g) sched)) i = Some pc -> nth_error (callers g) i = Some kc ->
  backpressure kc = true -> waits_pc pc = false /\ ~ In i (waiters (run step g (init g) sched)).
Proof.
  intros Hi Hc Hb. pose proof (invbp_run g sched _ _ _ Hi Hc Hb) as Hw. split; [exact Hw|].
  intros Hin. rewrite (waiter_pc _ _ _ (wt_run g sched) Hi Hin) in *. discriminate.
Qed.
