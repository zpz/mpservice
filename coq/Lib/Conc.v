(* Generic small-step scheduler semantics shared by the concurrent models.

   A model gives  step : cfg -> state -> label -> option (state * event).
   [None] = the labelled thread is not enabled in that state (blocked, finished, or the label's
   environment choice is impossible).  A schedule is any list of labels; [run] skips labels that
   are not enabled, so  "forall sched, P (run g s0 sched)"  ranges over every reachable state and
   over every interleaving and every environment choice. *)
From Coq Require Import List Arith Lia.
Import ListNotations.

Section Conc.
  Context {cfg state label event : Type}.
  Variable step : cfg -> state -> label -> option (state * event).

  Fixpoint run (g : cfg) (s : state) (sched : list label) : state :=
    match sched with
    | [] => s
    | l :: rest => match step g s l with
                   | Some (s', _) => run g s' rest
                   | None => run g s rest
                   end
    end.

  (* events produced along a schedule (skipped labels produce none) *)
  Fixpoint trace (g : cfg) (s : state) (sched : list label) : list event :=
    match sched with
    | [] => []
    | l :: rest => match step g s l with
                   | Some (s', e) => e :: trace g s' rest
                   | None => trace g s rest
                   end
    end.

  (* strict replay used by the correspondence check: every label must be enabled;
     returns the events, the final state and the index of the first disabled label if any *)
  Fixpoint replay_from (i : nat) (g : cfg) (s : state) (sched : list label)
    : list event * state * option nat :=
    match sched with
    | [] => ([], s, None)
    | l :: rest => match step g s l with
                   | Some (s', e) => let '(es, sf, bad) := replay_from (S i) g s' rest in (e :: es, sf, bad)
                   | None => ([], s, Some i)
                   end
    end.
  Definition replay := replay_from 0.

  Lemma run_app g s a b : run g s (a ++ b) = run g (run g s a) b.
  Proof.
    revert s; induction a as [|l a IH]; intros s; cbn; [reflexivity|].
    destruct (step g s l) as [[s' e]|]; apply IH.
  Qed.

  (* an invariant preserved by every enabled step holds after every schedule *)
  Lemma inv_run (g : cfg) (Inv : state -> Prop) :
    (forall s l s' e, Inv s -> step g s l = Some (s', e) -> Inv s') ->
    forall sched s, Inv s -> Inv (run g s sched).
  Proof.
    intros Hstep sched; induction sched as [|l rest IH]; intros s Hs; cbn; [exact Hs|].
    destruct (step g s l) as [[s' e]|] eqn:E; [apply IH; eapply Hstep; eauto | apply IH; exact Hs].
  Qed.

  (* ... and so does one that is preserved only from states in which [I] holds, once [I] is known of every
     reachable state: invariants are established one on top of the other, without being proved again together *)
  Lemma inv_run_under (g : cfg) (I J : state -> Prop) (s0 : state) :
    (forall sched, I (run g s0 sched)) ->
    (forall s l s' e, I s -> J s -> step g s l = Some (s', e) -> J s') ->
    J s0 -> forall sched, J (run g s0 sched).
  Proof.
    intros HI Hstep H0 sched; induction sched as [|l sched IH] using rev_ind; [exact H0|].
    rewrite run_app; cbn. destruct (step g (run g s0 sched) l) as [[s' e]|] eqn:E; eauto.
  Qed.

  (* a measure that strictly decreases at every enabled step bounds the number of productive steps *)
  Lemma trace_length_le_measure (g : cfg) (Inv : state -> Prop) (mu : state -> nat) :
    (forall s l s' e, Inv s -> step g s l = Some (s', e) -> Inv s' /\ mu s' < mu s) ->
    forall sched s, Inv s -> length (trace g s sched) <= mu s.
  Proof.
    intros Hstep sched; induction sched as [|l rest IH]; intros s Hs; cbn; [lia|].
    destruct (step g s l) as [[s' e]|] eqn:E.
    - destruct (Hstep _ _ _ _ Hs E) as [Hs' Hlt]. specialize (IH s' Hs'). cbn.
      lia.
    - apply IH; exact Hs.
  Qed.

  Definition enabled (g : cfg) (s : state) (l : label) : Prop := step g s l <> None.
End Conc.
