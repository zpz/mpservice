(* List facts that are not about one model: lists grown at the end (queues and histories are appended to), replacement at
   an index, counting, prefixes of [seq].

   The model files that replace a list element declare their own polymorphic [set_nth], each with the body of
   [upd_nth] below; these copies are convertible, so [rewrite], [apply] and [autorewrite] with the lemmas about
   [upd_nth] work on goals that mention such a [set_nth] as they stand. (Ops.set_nth and ProxyCall.set_obj are
   monomorphic fixpoints and are not convertible with it: their proof files bridge with an equation proved by
   induction.) The same holds for [count] and ServerLedger's [cnt] (FifoStream's [running s] is a [count] over [pp s] by
   conversion); a lemma whose right-hand side mentions [count] leaves [count] behind, so there [cnt] is unfolded, or folded
   into [count], first. *)
From Coq Require Import List Arith Bool Lia.
Import ListNotations.

Section Lists.
  Context {A : Type}.
  Implicit Types (l : list A) (x y : A).

  Lemma snoc_not_nil l x : l ++ [x] <> [].
  Proof. destruct l; discriminate. Qed.

  Lemma in_snoc x y l : In x l -> In x (l ++ [y]).
  Proof. intros H. apply in_or_app. now left. Qed.

  Lemma nth_error_lt l n x : nth_error l n = Some x -> n < length l.
  Proof. intros H. apply nth_error_Some. congruence. Qed.

  Lemma nth_error_snoc_some l x i y : nth_error l i = Some y -> nth_error (l ++ [x]) i = Some y.
  Proof. intros H. rewrite nth_error_app1; eauto using nth_error_lt. Qed.

  Lemma nth_error_snoc_last l x : nth_error (l ++ [x]) (length l) = Some x.
  Proof. rewrite nth_error_app2, Nat.sub_diag; auto. Qed.

  Lemma nth_error_snoc_ne l x i : i <> length l -> nth_error (l ++ [x]) i = nth_error l i.
  Proof.
    intros H. destruct (Nat.lt_ge_cases i (length l)) as [Hi|Hi]; [now apply nth_error_app1|].
    transitivity (@None A); [|symmetry]; apply nth_error_None; rewrite ?app_length; cbn; lia.
  Qed.

  Lemma nth_error_snoc_cases l x i y :
    nth_error (l ++ [x]) i = Some y ->
    (i < length l /\ nth_error l i = Some y) \/ (i = length l /\ y = x).
  Proof.
    intros H. destruct (Nat.lt_ge_cases i (length l)) as [Hi|Hi].
    - rewrite nth_error_app1 in H; auto.
    - rewrite nth_error_app2 in H by exact Hi. right.
      destruct (i - length l) as [|[|k]] eqn:E; cbn in H; [split; [lia|congruence]|discriminate..].
  Qed.

  Lemma firstn_snoc_nth l n x : nth_error l n = Some x -> firstn (S n) l = firstn n l ++ [x].
  Proof.
    revert n; induction l as [|h t IH]; intros [|n]; cbn; try discriminate.
    - now intros [= ->].
    - intros H. now rewrite <- (IH _ H).
  Qed.

  Lemma firstn_app_le n l ext : n <= length l -> firstn n (l ++ ext) = firstn n l.
  Proof. intros H. rewrite firstn_app. replace (n - length l) with 0 by lia. apply app_nil_r. Qed.

  Lemma nth_error_firstn_some n l j x : nth_error (firstn n l) j = Some x -> nth_error l j = Some x.
  Proof. revert n j; induction l; intros [|n] [|j]; cbn; try discriminate; eauto. Qed.

  Lemma concat_snoc (ls : list (list A)) l : concat (ls ++ [l]) = concat ls ++ l.
  Proof. rewrite concat_app. cbn. now rewrite app_nil_r. Qed.

  Lemma forallb_snoc f l x : forallb f (l ++ [x]) = forallb f l && f x.
  Proof. rewrite forallb_app. cbn. now rewrite andb_true_r. Qed.

  Lemma existsb_snoc f l x : existsb f (l ++ [x]) = existsb f l || f x.
  Proof. rewrite existsb_app. cbn. now rewrite orb_false_r. Qed.

  Lemma NoDup_snoc l x : NoDup l -> ~ In x l -> NoDup (l ++ [x]).
  Proof.
    intros Hl Hx. apply NoDup_rev in Hl. rewrite <- (rev_involutive (l ++ [x])), rev_app_distr.
    apply NoDup_rev. constructor; [now rewrite <- in_rev|exact Hl].
  Qed.

  Lemma NoDup_app_l (a b : list A) : NoDup (a ++ b) -> NoDup a.
  Proof. induction b as [|x b IH]; [now rewrite app_nil_r|]. intros H. eapply IH, NoDup_remove_1, H. Qed.

  Lemma Forall_nth_error (P : A -> Prop) l n x : Forall P l -> nth_error l n = Some x -> P x.
  Proof. intros H Hn. exact (proj1 (Forall_forall P l) H x (nth_error_In l n Hn)). Qed.

  Lemma Forall_snoc (P : A -> Prop) l x : Forall P l -> P x -> Forall P (l ++ [x]).
  Proof. intros Hl Hx. apply Forall_app. auto. Qed.

  Lemma nth_error_repeat_inv x y n i : nth_error (repeat x n) i = Some y -> y = x.
  Proof. intros H. apply nth_error_In, repeat_spec in H. exact H. Qed.
End Lists.

Lemma seq_prefix a : forall b st n, a ++ b = seq st n -> a = seq st (length a).
Proof.
  induction a as [|x a IH]; intros b st [|n]; cbn; try discriminate; [reflexivity..|].
  intros [= -> H]. f_equal. eapply IH, H.
Qed.

Lemma seq_app_nth a i b st n : a ++ i :: b = seq st n -> i = st + length a.
Proof.
  intros H. assert (Hl : length a < n) by (rewrite <- (seq_length n st), <- H, app_length; cbn; lia).
  rewrite <- (seq_nth st 0 Hl), <- H. symmetry. apply nth_middle.
Qed.

Fixpoint upd_nth {A} (n : nat) (x : A) (l : list A) : list A :=
  match l, n with
  | [], _ => []
  | _ :: t, O => x :: t
  | h :: t, S m => h :: upd_nth m x t
  end.

Section UpdNth.
  Context {A : Type}.
  Implicit Types (l : list A) (x y : A).

  Lemma upd_nth_length n x l : length (upd_nth n x l) = length l.
  Proof. revert n; induction l; intros [|n]; cbn; auto. Qed.

  Lemma nth_error_upd_nth_same n x l y : nth_error l n = Some y -> nth_error (upd_nth n x l) n = Some x.
  Proof. revert n; induction l; intros [|n]; cbn; try discriminate; auto. Qed.

  Lemma nth_error_upd_nth_other n m x l : n <> m -> nth_error (upd_nth n x l) m = nth_error l m.
  Proof. revert n m; induction l; intros [|n] [|m] H; cbn; auto; congruence. Qed.

  Lemma nth_error_upd_nth_cases n m x l y :
    nth_error (upd_nth n x l) m = Some y -> (m = n /\ y = x) \/ (m <> n /\ nth_error l m = Some y).
  Proof.
    destruct (Nat.eq_dec n m) as [<-|Hne]; [|rewrite nth_error_upd_nth_other by exact Hne; auto].
    destruct (nth_error l n) eqn:E.
    - rewrite (nth_error_upd_nth_same _ _ _ _ E). intros [= <-]; auto.
    - apply nth_error_None in E. rewrite <- (upd_nth_length n x) in E. apply nth_error_None in E. congruence.
  Qed.

  Lemma nth_upd_nth n m x d l :
    n < length l -> nth m (upd_nth n x l) d = if Nat.eq_dec n m then x else nth m l d.
  Proof.
    revert n m; induction l as [|a l IH]; intros [|n] [|m] H; cbn [nth upd_nth length] in *; try lia; try reflexivity.
    rewrite IH by lia. destruct (Nat.eq_dec n m), (Nat.eq_dec (S n) (S m)); (reflexivity || lia).
  Qed.

  Lemma nth_snoc n x d l : nth n (l ++ [x]) d = if Nat.eq_dec (length l) n then x else nth n l d.
  Proof.
    destruct (Nat.eq_dec (length l) n) as [<-|Hne]; [rewrite app_nth2, Nat.sub_diag by lia; reflexivity|].
    destruct (Nat.lt_ge_cases n (length l)); [now apply app_nth1|].
    rewrite !nth_overflow; [reflexivity|lia|rewrite app_length; cbn; lia].
  Qed.

  Lemma Forall_upd_nth (P : A -> Prop) n x l : Forall P l -> P x -> Forall P (upd_nth n x l).
  Proof. intros H Hx. revert n; induction H; intros [|n]; cbn; auto. Qed.

  Lemma upd_nth_same n x l : nth_error l n = Some x -> upd_nth n x l = l.
  Proof.
    revert n; induction l as [|h t IH]; intros [|n]; cbn; try discriminate; [now intros [= ->]|].
    intros H. now rewrite IH.
  Qed.

  Lemma upd_nth_none n x l : nth_error l n = None -> upd_nth n x l = l.
  Proof. revert n; induction l as [|h t IH]; intros [|n]; cbn; try discriminate; auto. intros H. now rewrite IH. Qed.
End UpdNth.

Lemma map_upd_nth {A B} (f : A -> B) i x l : map f (upd_nth i x l) = upd_nth i (f x) (map f l).
Proof. revert i; induction l; intros [|i]; cbn; congruence. Qed.

Lemma map_upd_nth_same {A B} (f : A -> B) i x l y :
  nth_error l i = Some y -> f x = f y -> map f (upd_nth i x l) = map f l.
Proof. intros H E. rewrite map_upd_nth, E. apply upd_nth_same, map_nth_error, H. Qed.

Definition count {A} (f : A -> bool) (l : list A) : nat := length (filter f l).

Section Count.
  Context {A : Type} (f : A -> bool).

  Lemma count_nil : count f [] = 0.
  Proof. reflexivity. Qed.

  Lemma count_cons x l : count f (x :: l) = (if f x then 1 else 0) + count f l.
  Proof. unfold count. cbn. now destruct (f x). Qed.

  Lemma count_app a b : count f (a ++ b) = count f a + count f b.
  Proof. unfold count. now rewrite filter_app, app_length. Qed.

  Lemma count_snoc l x : count f (l ++ [x]) = count f l + (if f x then 1 else 0).
  Proof. now rewrite count_app, count_cons, count_nil, Nat.add_0_r. Qed.

  Lemma count_le_length l : count f l <= length l.
  Proof. induction l; rewrite ?count_cons; cbn [length]; [apply Nat.le_refl|destruct (f a); lia]. Qed.

  Lemma count_repeat_false x n : f x = false -> count f (repeat x n) = 0.
  Proof. intros H. induction n; cbn [repeat]; rewrite ?count_cons, ?H; auto. Qed.

  Lemma count_upd_nth j v l old :
    nth_error l j = Some old ->
    count f (upd_nth j v l) + (if f old then 1 else 0) = count f l + (if f v then 1 else 0).
  Proof.
    revert j; induction l as [|h t IH]; intros [|j]; cbn [nth_error upd_nth]; try discriminate;
      rewrite !count_cons.
    - intros [= ->]. lia.
    - intros H. specialize (IH _ H). lia.
  Qed.

  Lemma count_upd_nth_le j v l : count f (upd_nth j v l) <= count f l + (if f v then 1 else 0).
  Proof.
    destruct (nth_error l j) as [old|] eqn:E; [|rewrite upd_nth_none by exact E; lia].
    pose proof (count_upd_nth j v l old E). lia.
  Qed.

  Lemma count_pos_in l x : In x l -> f x = true -> 0 < count f l.
  Proof.
    induction l as [|h t IH]; [intros []|]. rewrite count_cons. intros [->|H] Hx; [rewrite Hx; lia|].
    specialize (IH H Hx). lia.
  Qed.

  Lemma count_pos_nth l : 0 < count f l -> exists j x, nth_error l j = Some x /\ f x = true.
  Proof.
    induction l as [|h t IH]; rewrite ?count_cons; [inversion 1|].
    destruct (f h) eqn:E; [exists 0, h; auto|]. intros H. destruct (IH H) as (j & x & Hj). now exists (S j), x.
  Qed.
  Lemma count_one_unique l : forall i j x y,
    count f l <= 1 -> nth_error l i = Some x -> f x = true -> nth_error l j = Some y -> f y = true -> i = j.
  Proof.
    induction l as [|h t IH]; intros [|i] [|j] x y; cbn [nth_error]; try discriminate; rewrite count_cons; auto.
    - intros Hc [= ->] Hx Hj Hy. rewrite Hx in Hc. pose proof (count_pos_in t y (nth_error_In _ _ Hj) Hy). lia.
    - intros Hc Hi Hx [= ->] Hy. rewrite Hy in Hc. pose proof (count_pos_in t x (nth_error_In _ _ Hi) Hx). lia.
    - intros Hc Hi Hx Hj Hy. f_equal. eapply IH; eauto. lia.
  Qed.
End Count.

Global Arguments count : simpl never.
