(* Proof tactics shared by the step-invariant proofs (DESIGN.md section 10.7). *)
From Coq Require Export List ZArith Bool Lia.

(* Case analysis along the branches of a function: H mentions its unfolded body. A scrutinee that is a variable is
   destructed in place, any other (a test, a lookup) with an equation; branches that make H contradictory go.
   For H : <body> = None, to find out what a thread that cannot move is waiting for. *)
Ltac break_match_hyp H :=
  repeat match type of H with
         | context [match ?x with _ => _ end] => first [is_var x; destruct x | destruct x eqn:?]; try discriminate H
         end.

Ltac inv H := inversion H; subst; clear H.

(* For H : <unfolded body of step> = Some (s', e): the same, and at the end s' and e are replaced by what the branch
   returns. Unfold the model's step function and its helpers in H first. *)
Ltac step_cases H := break_match_hyp H; injection H as <- <-.

Ltac bool_to_prop :=
  repeat match goal with
         | H : (_ <=? _)%nat = true |- _ => apply Nat.leb_le in H
         | H : (_ <=? _)%nat = false |- _ => apply Nat.leb_gt in H
         | H : (_ <? _)%nat = true |- _ => apply Nat.ltb_lt in H
         | H : (_ <? _)%nat = false |- _ => apply Nat.ltb_ge in H
         | H : (_ =? _)%nat = true |- _ => apply Nat.eqb_eq in H
         | H : (_ =? _)%nat = false |- _ => apply Nat.eqb_neq in H
         | H : (_ && _) = true |- _ => apply andb_true_iff in H; destruct H
         | H : negb _ = true |- _ => apply negb_true_iff in H
         end.

(* Keep cbn/simpl from unfolding arithmetic on variables. Global: in force in every file that depends on this one, whether
   or not it imports it. A proof may go through without these and still pay for it: cbn then turns [-100 - p] into towers
   of constructors that Qed and coqchk check again. *)
Global Arguments Nat.leb : simpl never.
Global Arguments Nat.ltb : simpl never.
Global Arguments Nat.eqb : simpl never.
Global Arguments Z.add : simpl never.
Global Arguments Z.sub : simpl never.
Global Arguments Z.opp : simpl never.
Global Arguments Z.mul : simpl never.
Global Arguments Z.leb : simpl never.
Global Arguments Z.ltb : simpl never.
Global Arguments Z.eqb : simpl never.
Global Arguments Z.max : simpl never.
Global Arguments Z.min : simpl never.
