(* C01 — parallel map (fifo_stream / Parmapper) is order-preserving. Statements; the examples are evaluated here. *)
From MpV Require Import Proof.FifoCalls.
From MpV Require Import Lib.Conc Model.FifoStream Proof.FifoProof Proof.FifoComplete.

(* For every configuration (capacity, pool size, source of any length with failures anywhere,
   worker outcome table, preprocessor, return_x / return_exceptions, consumer stop position) and
   every interleaving of feeder, consumer and pool workers - including every completion order of
   the concurrent calls - what the consumer has been handed so far is exactly
   [(0, outcome 0); (1, outcome 1); ...; (k-1, outcome (k-1))]: one output per input, in input
   order, the i-th being the worker function's result (or exception) for the i-th input, where
   [outcome_of g i] is computed from the i-th source element alone. *)
Theorem C01_fifo_prefix : forall (g : cfg) (sched : list label),
  let s := run step g (init g) sched in
  received s = map (fun i => (i, outcome_of g i)) (seq 0 (length (received s))).
Proof. exact fifo_prefix. Qed.
Print Assumptions C01_fifo_prefix.

(* Without return_exceptions no exception object is ever delivered as an output. *)
Theorem C01_no_exception_output : forall (g : cfg) (sched : list label),
  return_exc g = false ->
  Forall (fun p => is_ok (snd p) = true) (received (run step g (init g) sched)).
Proof. exact fifo_no_exc_delivered. Qed.
Print Assumptions C01_no_exception_output.

(* When the iteration completes normally - in any schedule - the consumer has received exactly one
   output per source element (all of them, in input order, each the outcome of its own input), and
   the source itself did not fail. *)
Theorem C01_fifo_complete : forall (g : cfg) (sched : list label),
  let s := run step g (init g) sched in
  cp s = CDone Completed ->
  received s = map (fun i => (i, outcome_of g i)) (seq 0 (length (datas (src g))))
  /\ src g = map SData (datas (src g)).
Proof. exact fifo_complete. Qed.
Print Assumptions C01_fifo_complete.

(* The worker function is started at most once per element, and never for an element the preprocessor rejected
   (its future is created already failed). *)
Theorem C01_calls_once : forall g sched,
  NoDup (calls (run step g (init g) sched)) /\
  forall i, In i (calls (run step g (init g) sched)) -> forall e, pre_of g (val g i) <> PreErr e.
Proof. exact calls_once. Qed.
Print Assumptions C01_calls_once.

(* Non-vacuity: a run with out-of-order completion delivers in input order. *)
Example C01_example :
  let g := {| cap := 2; conc := 2; src := [SData 5; SData 6]; call := fun x => Ok (x * 10)%Z; pre := None;
              return_x := false; return_exc := false; stop_after := None |} in
  received (run step g (init g)
     [C; F; F; F; F; F; F; F; F; P 0; P 1; P 1; P 1; P 0; P 0; C; C; C; C; C; C]) =
  [(0, Ok 50%Z); (1, Ok 60%Z)].
Proof. vm_compute. reflexivity. Qed.

(* The hand-off queue itself (anchor: "single-reader/single-writer bounded queue keeps FIFO order", _queues.py:28-71).
   The models above treat SingleLane as an atomic bounded FIFO; Model/Lane.v is its code, one step per access to the mutex,
   the deque and the two conditions, and these theorems discharge that treatment. *)
From MpV Require Model.Lane Proof.LaneProof.

(* For every bound, every script of put / get operations (blocking, non-blocking, timed) and full() / empty() reads of the
   writer and of the reader, and every interleaving including every moment a timed wait may expire: the values get has
   returned so far, the value held by a get in progress and the queue content are together exactly the items put has
   accepted so far, in that order - nothing lost, duplicated, reordered or invented. *)
Theorem C01_singlelane_fifo : forall (g : Lane.cfg) (sched : list Lane.label),
  let s := run Lane.step g (Lane.init g) sched in
  Lane.oks (Lane.c_out s) ++ Lane.c_inflight s ++ Lane.q s = Lane.oks (Lane.p_out s) ++ Lane.p_inflight s.
Proof. exact LaneProof.lane_fifo. Qed.
Print Assumptions C01_singlelane_fifo.

(* popleft is never called on an empty deque, although get re-tests nothing after a wake-up (`if`, not `while`) *)
Theorem C01_singlelane_no_underflow : forall (g : Lane.cfg) (sched : list Lane.label),
  Lane.underflow (run Lane.step g (Lane.init g) sched) = false.
Proof. exact LaneProof.lane_no_underflow. Qed.
Print Assumptions C01_singlelane_no_underflow.

(* Every step of every run is a stutter, an atomic put into a queue that is not full, or an atomic get of the oldest item:
   SingleLane refines the atomic bounded FIFO of the stream models. *)
Theorem C01_singlelane_refines_atomic : forall (g : Lane.cfg) (sched : list Lane.label) (l : Lane.label) s' e,
  let s := run Lane.step g (Lane.init g) sched in
  Lane.step g s l = Some (s', e) ->
  Lane.q s' = Lane.q s
  \/ (exists x, Lane.q s' = Lane.q s ++ [x] /\ Lane.isfull g s = false /\ e_op e = OP_APPEND /\ e_val e = x)
  \/ (exists v, Lane.q s = v :: Lane.q s' /\ e_op e = OP_POPLEFT /\ e_val e = v).
Proof. exact LaneProof.lane_refines_atomic. Qed.
Print Assumptions C01_singlelane_refines_atomic.

(* Non-vacuity: bound 1, three blocking puts against three blocking gets; the writer waits on a full queue and is woken. *)
Example C01_singlelane_example :
  let g := {| Lane.maxsize := 1;
              Lane.pscript := [Lane.Put 5 true false; Lane.Put 6 true false; Lane.Put 7 true false];
              Lane.cscript := [Lane.Get true false; Lane.Get true false; Lane.Get true false] |} in
  let P := Lane.P false in let C := Lane.C false in
  let s := run Lane.step g (Lane.init g)
    [P; P; P; P; P;  P; P; P;            (* 5 is in; the second put finds the queue full and waits *)
     C; C; C; C; C;                      (* get returns 5 and wakes the writer *)
     P; P; P; P;                         (* 6 appended without a second test *)
     C; C; C; C; C;  P; P; P; P; P;  C; C; C; C; C] in
  Lane.oks (Lane.c_out s) = [5; 6; 7]%Z /\ Lane.pp s = Lane.TDone /\ Lane.cp s = Lane.TDone.
Proof. vm_compute. repeat split; reflexivity. Qed.
