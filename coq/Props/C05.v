(* C05 — streams end cleanly on early stop or failure. Statements; the proofs are in the Proof files, except for the two
   `_refuted` witness schedules, which are evaluated here.
   Status (DESIGN.md 10.2, rows C and D; known_findings.json): the "nothing blocks forever" clause is FALSE for a source raising a
   non-Exception signal (StopRequested; finding C05-D, open), and was false for buffer(1)/buffer(2) with an early stop until
   the finalizer was repaired (C05-C, fixed 735596a); both hangs are witness schedules below. Proved for all schedules: a
   closed iterator has no live helper thread (failures in stream order: C01); and when the source raises only ordinary
   exceptions neither fifo_stream / Parmapper nor buffer(n), n >= 1, wedge. *)
From MpV Require Import Lib.Conc Proof.FifoLive.
From MpV Require Model.Buffer Model.FifoStream Proof.BufferLive.
From Coq Require Import List ZArith.
Import ListNotations.

(* every reachable state in which the consumer's iterator is closed has the worker thread finished *)
Theorem C05_buffer_closed_no_live_worker :
  forall (g : Buffer.cfg) (sched : list Buffer.label) (o : Buffer.outcome),
  Buffer.cp (run Buffer.step g (Buffer.init g) sched) = Buffer.CDone o ->
  Buffer.w_finished (run Buffer.step g (Buffer.init g) sched) = true.
Proof. exact BufferProof.closed_means_worker_gone. Qed.
Print Assumptions C05_buffer_closed_no_live_worker.

Theorem C05_fifo_closed_no_live_feeder :
  forall (g : FifoStream.cfg) (sched : list FifoStream.label) (o : FifoStream.outcome),
  FifoStream.cp (run FifoStream.step g (FifoStream.init g) sched) = FifoStream.CDone o ->
  FifoStream.f_finished (run FifoStream.step g (FifoStream.init g) sched) = true.
Proof. exact FifoProof.closed_means_feeder_gone. Qed.
Print Assumptions C05_fifo_closed_no_live_feeder.

(* fifo_stream / Parmapper never wedge: for every capacity >= 1, pool size >= 1, source that raises only ordinary
   exceptions (at any position), worker outcomes, preprocessor, flags, position at which the consumer stops early,
   and every interleaving of the feeder thread, the consuming thread and the pool workers: a state in which none of
   them can move is a final state (iterator closed, feeder finished). With a fair scheduler: nothing blocks forever. *)
Theorem C05_fifo_no_deadlock :
  forall (g : FifoStream.cfg) (sched : list FifoStream.label),
  no_base (FifoStream.src g) -> 1 <= FifoStream.cap g -> 1 <= FifoStream.conc g ->
  FifoStream.deadlocked g (run FifoStream.step g (FifoStream.init g) sched) = false.
Proof. exact fifo_no_deadlock. Qed.
Print Assumptions C05_fifo_no_deadlock.

(* Stream.buffer(n) never wedges, for every n >= 1: for every source that raises only ordinary exceptions (at any position),
   every position at which the consumer stops early (or none), and every interleaving of the worker thread and the
   consuming thread, a state in which neither can move is a final state (iterator closed, worker finished).
   [drain_join = true] is the finalizer as repaired (repair C: it keeps draining the queue while it waits for the worker). *)
Theorem C05_buffer_no_deadlock :
  forall (g : Buffer.cfg) (sched : list Buffer.label),
  BufferLive.no_base (Buffer.src g) -> 1 <= Buffer.maxsize g -> Buffer.drain_join g = true ->
  Buffer.deadlocked g (run Buffer.step g (Buffer.init g) sched) = false.
Proof. exact BufferLive.buffer_no_deadlock. Qed.
Print Assumptions C05_buffer_no_deadlock.

(* ... and the finalizer's loop ends: once the stop flag is set the worker has at most four steps left, each of its steps uses
   one up, and it can always take a step when the queue has room - which the drain provides. *)
Theorem C05_buffer_worker_runs_out :
  forall (g : Buffer.cfg) (s s' : Buffer.state) e,
  Buffer.stopped s = true -> Buffer.step_w g s = Some (s', e) ->
  Buffer.stopped s' = true /\ BufferLive.steps_left (Buffer.wp s') < BufferLive.steps_left (Buffer.wp s).
Proof. exact BufferLive.worker_step_after_stop_uses_one_up. Qed.
Print Assumptions C05_buffer_worker_runs_out.
Theorem C05_buffer_worker_can_move_when_room :
  forall (g : Buffer.cfg) (s : Buffer.state),
  length (Buffer.q s) < Buffer.maxsize g -> Buffer.w_finished s = false -> Buffer.wp s <> Buffer.WIdle ->
  Buffer.step_w g s <> None.
Proof. exact BufferLive.worker_can_move_when_room. Qed.
Print Assumptions C05_buffer_worker_can_move_when_room.

(* The finalizer before the repair (drain once, then join without a limit) needed three slots ... *)
Theorem C05_buffer3_no_deadlock_before_repair :
  forall (g : Buffer.cfg) (sched : list Buffer.label),
  BufferLive.no_base (Buffer.src g) -> 3 <= Buffer.maxsize g ->
  Buffer.deadlocked g (run Buffer.step g (Buffer.init g) sched) = false.
Proof. exact BufferLive.buffer3_no_deadlock_before_repair. Qed.
Print Assumptions C05_buffer3_no_deadlock_before_repair.

(* ... and hung with fewer: buffer(1) with an early break - _finalize drained and then joined, while the worker still had to
   put the element it held and the end marker into a queue of size 1. The same schedule ends with the repaired finalizer. *)
Theorem C05_buffer1_break_before_repair_refuted :
  exists (g : Buffer.cfg) (sched : list Buffer.label),
    Buffer.maxsize g = 1 /\ Buffer.drain_join g = false /\
    Buffer.deadlocked g (run Buffer.step g (Buffer.init g) sched) = true.
Proof.
  exists {| Buffer.maxsize := 1;
            Buffer.src := [Buffer.SData 0; Buffer.SData 1; Buffer.SData 2; Buffer.SData 3];
            Buffer.stop_after := Some 1; Buffer.drain_join := false |}.
  exists [Buffer.C; Buffer.W; Buffer.W; Buffer.W; Buffer.C; Buffer.C;   (* 0 handed over; consumer breaks *)
          Buffer.W; Buffer.W;                                           (* worker holds 1, passed the stop test *)
          Buffer.C; Buffer.C;                                           (* set stopped; queue seen empty *)
          Buffer.W; Buffer.W; Buffer.W].                                (* put 1; pull 2; sees stop; blocks on put(FINISHED) *)
  split; [reflexivity | split; [reflexivity | vm_compute; reflexivity]].
Qed.
Print Assumptions C05_buffer1_break_before_repair_refuted.

(* Refutation for a source that raises a BaseException (StopRequested): the feeder dies without
   leaving a marker and the consumer blocks in get() forever. *)
Theorem C05_fifo_stoprequested_no_deadlock_refuted :
  exists (g : FifoStream.cfg) (sched : list FifoStream.label),
    FifoStream.deadlocked g (run FifoStream.step g (FifoStream.init g) sched) = true.
Proof.
  exists {| FifoStream.cap := 1; FifoStream.conc := 1; FifoStream.src := [FifoStream.SRaiseBase 1];
            FifoStream.call := fun x => FifoStream.Ok x; FifoStream.pre := None;
            FifoStream.return_x := false; FifoStream.return_exc := false; FifoStream.stop_after := None |}.
  exists [FifoStream.C; FifoStream.F].
  vm_compute; reflexivity.
Qed.
Print Assumptions C05_fifo_stoprequested_no_deadlock_refuted.

(* The hand-off queue itself (Model/Lane.v = the code of SingleLane): no wake-up is lost. In every reachable state a
   writer sitting in not_full.wait() faces a queue that is really full, or a reader that has already popped and is about
   to notify it; symmetrically for the reader. Hence the lane never wedges its two users: if neither thread can move, one
   of them has finished its script. *)
From MpV Require Model.Lane Proof.LaneProof.
Theorem C05_singlelane_no_lost_wakeup : forall (g : Lane.cfg) (sched : list Lane.label),
  let s := run Lane.step g (Lane.init g) sched in
  (Lane.pp s = Lane.TWaiting -> (0 < Lane.maxsize g /\ Lane.maxsize g <= length (Lane.q s)) \/ Lane.cp s = Lane.TNotify) /\
  (Lane.cp s = Lane.TWaiting -> Lane.q s = [] \/ Lane.pp s = Lane.TNotify).
Proof. exact LaneProof.lane_no_lost_wakeup. Qed.
Print Assumptions C05_singlelane_no_lost_wakeup.

Theorem C05_singlelane_not_wedged : forall (g : Lane.cfg) (sched : list Lane.label),
  Lane.wedged g (run Lane.step g (Lane.init g) sched) = false.
Proof. exact LaneProof.lane_not_wedged. Qed.
Print Assumptions C05_singlelane_not_wedged.
