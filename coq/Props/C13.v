(* C13 — hosted objects live exactly as long as some proxy refers to them.
   The proofs about every history are in Proof/RefcountProof.v; the concrete histories are evaluated here. *)
From MpV Require Import Model.Refcount Proof.RefcountProof.

(* For every history of creating, pickling, unpickling once, passing to child processes, storing in and removing
   from hosted containers, returning via managed(), deleting proxies and exiting processes - and for every variant of
   the code (with or without the two repairs): an object to which a reference exists (a live proxy in any process,
   a pickle in transit, a proxy stored in a hosted container) is alive. *)
Theorem C13_referenced_is_alive : forall g ops x,
  0 < nrefs x (refs (run g ops)) -> alive (run g ops) x = true.
Proof. exact referenced_is_alive. Qed.
Print Assumptions C13_referenced_is_alive.

(* For the code as it is now, after every history the server's count of every object is exactly the number of
   references to it, and a destroyed object has none. *)
Theorem C13_count_is_references : forall ops x,
  match get_cnt (run now ops) x with
  | Some n => n = nrefs x (refs (run now ops)) /\ 0 < n
  | None => nrefs x (refs (run now ops)) = 0
  end.
Proof. exact count_is_references. Qed.
Print Assumptions C13_count_is_references.

(* ... hence an object is destroyed (and its shared memory block released by its finalizer) as soon as the last
   reference is gone. *)
Theorem C13_destroyed_when_unreferenced : forall ops x,
  nrefs x (refs (run now ops)) = 0 -> alive (run now ops) x = false.
Proof. exact destroyed_when_unreferenced. Qed.
Print Assumptions C13_destroyed_when_unreferenced.

(* Before the repairs: a proxy passed as a process argument never gives its reference back ... *)
Theorem C13_inherited_proxy_leaks_refuted :
  let s := run {| adopt := false; exitfin := true |} [OCreate 0 1; OPickle 1 true 2; OUnpickle 2 1 3; ODrop 3; ODrop 1] in
  nrefs 0 (refs s) = 0 /\ get_cnt s 0 = Some 1.
Proof. vm_compute. split; reflexivity. Qed.
Print Assumptions C13_inherited_proxy_leaks_refuted.

(* ... and neither does a proxy that is still alive when its process exits. *)
Theorem C13_exit_without_finalizers_leaks_refuted :
  let s := run {| adopt := true; exitfin := false |} [OCreate 0 1; OPickle 1 false 2; OUnpickle 2 1 3; ODrop 1; OExit 1] in
  nrefs 0 (refs s) = 0 /\ get_cnt s 0 = Some 1.
Proof. vm_compute. split; reflexivity. Qed.
Print Assumptions C13_exit_without_finalizers_leaks_refuted.

(* Known finding C13-PKL on the current tree: __reduce__ adds the reference for the transit as a side effect; when the
   message that contains the pickle then fails to be pickled as a whole, the pickle never leaves and will never be
   unpickled - the reference it holds (the only one left here) keeps the object hosted for ever. *)
Theorem C13_failed_pickle_leaks_refuted :
  let s := run now [OCreate 0 1; OPickle 1 false 2; ODrop 1] in
  get_cnt s 0 = Some 1 /\ map r_h (refs s) = [HTransit false].
Proof. vm_compute. split; reflexivity. Qed.
Print Assumptions C13_failed_pickle_leaks_refuted.

(* Non-vacuity: nesting, cascade, and on the code as it is now the two leaking histories and a store/remove. *)
Example C13_example_nesting :
  let s := run now [OCreate 0 1; OCreate 0 2; OStore 2 0 3; ODrop 2; OPickle 1 false 4; OUnpickle 4 1 5] in
  cnt s = [Some 2; Some 1] /\ errors s = 0
  /\ cnt (run now [OCreate 0 1; OCreate 0 2; OStore 2 0 3; ODrop 2; OPickle 1 false 4; OUnpickle 4 1 5; ODrop 1; OExit 1]) = [None; None].
Proof. vm_compute. repeat split; reflexivity. Qed.

Example C13_example_repaired :
  cnt (run now [OCreate 0 1; OPickle 1 true 2; OUnpickle 2 1 3; ODrop 3; ODrop 1]) = [None]
  /\ cnt (run now [OCreate 0 1; OPickle 1 false 2; OUnpickle 2 1 3; ODrop 1; OExit 1]) = [None]
  /\ cnt (run now [OCreate 0 1; OCreate 0 2; OStore 1 1 3; ORemove 3 0 true 4; ODrop 1; ODrop 2]) = [Some 1; None].
Proof. vm_compute. repeat split; reflexivity. Qed.
