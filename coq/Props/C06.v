(* C06 — backlog never exceeds capacity; slots are always returned. Statements only.
   Model: Model/Server.v (Server._enqueue / _wait_for_result / gather / notifier over an abstract
   servlet), after the repairs recorded in known_findings.json (while-loop around the not-full wait;
   ledger entry before the input is queued).
   Where the words of the statements are defined: led, inflight, quiet in Proof/ServerLedger.v; rejected_pc, waits_pc in
   Proof/ServerReject.v; backlog and the state's field max_backlog in Model/Server.v. *)
From MpV Require Import Proof.ServerLedger Proof.ServerReject.
From MpV Require Import Lib.Conc Model.Server Proof.ServerProof.

(* For every capacity, every number of concurrent callers (each with or without backpressure), every
   number of servlet workers, every servlet function and every interleaving - including every
   moment at which a timed wait may expire - the number of requests recorded as in flight never
   exceeds the capacity, now and at every earlier instant of the run. *)
Theorem C06_backlog_le_capacity : forall (g : cfg) (sched : list label),
  (backlog (run step g (init g) sched) <= capacity g)%nat
  /\ (max_backlog (run step g (init g) sched) <= capacity g)%nat.
Proof. exact backlog_le_capacity. Qed.
Print Assumptions C06_backlog_le_capacity.

(* Every accepted request gives its slot back exactly when its result emerges: request u is in the ledger iff it is in
   flight - recorded but not yet queued, in the input queue, held by a servlet worker, in the output queue, or just taken
   by the gather thread - and it is in at most one of those places. *)
Theorem C06_ledger_is_in_flight : forall g sched u,
  let s := run step g (init g) sched in
  led u s = inflight u s /\ (inflight u s <= 1)%nat.
Proof. exact ledger_is_in_flight. Qed.
Print Assumptions C06_ledger_is_in_flight.

(* ... so an idle server has backlog zero, whether the requests succeeded, failed, timed out or were cancelled *)
Theorem C06_idle_backlog_zero : forall g sched,
  quiet (run step g (init g) sched) -> ledger (run step g (init g) sched) = [].
Proof. exact idle_backlog_zero. Qed.
Print Assumptions C06_idle_backlog_zero.

(* ... and no result ever finds its ledger entry missing (the defect repaired by commit c677130). *)
Theorem C06_no_result_dropped : forall g sched, dropped_results (run step g (init g) sched) = [].
Proof. exact no_result_dropped. Qed.
Print Assumptions C06_no_result_dropped.

(* A rejected request leaves nothing behind: a caller that is being or has been rejected (at once, or after its wait
   expired) has no ledger entry, is in no queue, with no worker and not with the gather thread, and is not among the
   condition's waiters. *)
Theorem C06_rejected_leaves_nothing : forall g sched i pc,
  let s := run step g (init g) sched in
  nth_error (kp s) i = Some pc -> rejected_pc pc = true ->
  led i s = 0%nat /\ inflight i s = 0%nat /\ ~ In i (waiters s).
Proof. exact rejected_leaves_nothing. Qed.
Print Assumptions C06_rejected_leaves_nothing.

(* A caller that asked for backpressure never waits: at no moment of any run is it about to wait, queued on the
   condition, woken, or rejected "after waiting" (so with a full backlog its only way out is the immediate
   ServerBacklogFull, which by the theorem above leaves nothing behind). *)
Theorem C06_backpressure_never_waits : forall g sched i pc kc,
  nth_error (kp (run step g (init g) sched)) i = Some pc -> nth_error (callers g) i = Some kc ->
  backpressure kc = true -> waits_pc pc = false /\ ~ In i (waiters (run step g (init g) sched)).
Proof. exact backpressure_never_waits. Qed.
Print Assumptions C06_backpressure_never_waits.

(* Non-vacuity: with capacity 1 and three waiting callers the bound is reached, not exceeded. *)
Example C06_example :
  let g := {| capacity := 1;
              callers := [ {| backpressure := false; arg := 0%Z |}; {| backpressure := false; arg := 1%Z |};
                           {| backpressure := false; arg := 2%Z |} ];
              nworkers := 1; serve := fun x => Ok x |} in
  let s := run step g (init g)
    [K 0 false; K 0 false; K 0 false; K 0 false; K 0 false;      (* caller 0 accepted *)
     K 1 false; K 1 false; K 1 false;                            (* caller 1 waits *)
     B 0; B 0; G; G; G; G; G;                                    (* request 0 answered, slot freed *)
     Nf; Nf; Nf; Nf;                                             (* caller 1 notified *)
     K 2 false; K 2 false; K 2 false; K 2 false; K 2 false;      (* caller 2 slips in *)
     K 1 false; K 1 false; K 1 false]                            (* caller 1 re-checks and waits again *)
  in max_backlog s = 1%nat /\ nth_error (kp s) 1 = Some KWaiting.
Proof. vm_compute. split; reflexivity. Qed.

(* Non-vacuity of the rejection theorems: with capacity 1, a second caller using backpressure is rejected at once. *)
Example C06_reject_example :
  let g := {| capacity := 1;
              callers := [ {| backpressure := false; arg := 0%Z |}; {| backpressure := true; arg := 1%Z |} ];
              nworkers := 1; serve := fun x => Ok x |} in
  let s := run step g (init g)
    [K 0 false; K 0 false; K 0 false; K 0 false; K 0 false;      (* caller 0 accepted *)
     K 1 false; K 1 false; K 1 false]                            (* caller 1: lock, full, raise *)
  in nth_error (kp s) 1 = Some (KDone Rejected) /\ ledger s = [0%nat].
Proof. vm_compute. split; reflexivity. Qed.
(* AsyncServer and servers over process servlets run for real; the exact history of their ledger operations is checked
   against Model/BacklogSpec.v. A history the specification accepts has at most [cap] requests in flight after every
   operation, for every capacity and history length, and the counters add up. *)
From MpV Require Model.BacklogSpec Proof.BacklogSpecProof.
Theorem C06_accepted_history_bounded : forall (cap : nat) (evs : list BacklogSpec.ev) (sf : BacklogSpec.st),
  BacklogSpec.accept cap BacklogSpec.init 0 evs = inl sf ->
  forall k, exists sk, BacklogSpec.accept cap BacklogSpec.init 0 (firstn k evs) = inl sk /\
                       BacklogSpec.backlog sk <= cap /\
                       BacklogSpec.accepted sk = BacklogSpec.released sk + BacklogSpec.backlog sk.
Proof. exact BacklogSpecProof.accepted_history_bounded. Qed.
Print Assumptions C06_accepted_history_bounded.
Theorem C06_idle_means_all_slots_back : forall (cap : nat) (evs : list BacklogSpec.ev) (sf : BacklogSpec.st),
  BacklogSpec.accept cap BacklogSpec.init 0 evs = inl sf -> BacklogSpec.backlog sf = 0 ->
  BacklogSpec.accepted sf = BacklogSpec.released sf.
Proof. exact BacklogSpecProof.idle_means_all_slots_back. Qed.
Print Assumptions C06_idle_means_all_slots_back.
Theorem C06_refusal_is_real : forall (cap : nat) (s : BacklogSpec.st) (e : BacklogSpec.ev) (k : BacklogSpec.refusal),
  BacklogSpec.step cap s e = inr k ->
  match k with
  | BacklogSpec.Overflow => e = BacklogSpec.Acc /\ cap <= BacklogSpec.backlog s
  | BacklogSpec.Impossible => e = BacklogSpec.Rel /\ BacklogSpec.backlog s = 0
  | BacklogSpec.Inconsistent => exists n, e = BacklogSpec.Len n /\ n <> BacklogSpec.backlog s
  end.
Proof. exact BacklogSpecProof.refusal_is_real. Qed.
Print Assumptions C06_refusal_is_real.
Example C06_spec_examples :
  (exists s, BacklogSpec.accept 2 BacklogSpec.init 0 [BacklogSpec.Len 0; BacklogSpec.Acc; BacklogSpec.Acc; BacklogSpec.Len 2;
                                                       BacklogSpec.Rel; BacklogSpec.Acc; BacklogSpec.Rel; BacklogSpec.Rel] = inl s
             /\ BacklogSpec.peak s = 2 /\ BacklogSpec.backlog s = 0) /\
  BacklogSpec.accept 2 BacklogSpec.init 0 [BacklogSpec.Acc; BacklogSpec.Acc; BacklogSpec.Acc] = inr (2, BacklogSpec.Overflow).
Proof.
  (* evaluate the run first: split alone would close it by unification *)
  split; [eexists; split; [vm_compute; reflexivity|split; reflexivity] | vm_compute; reflexivity].
Qed.
(* AsyncServer's admission gate at the granularity of its code (Model/AGate.v): the ledger never exceeds the capacity, with or
   without the pass-on repair, for every history. *)
From MpV Require Model.AGate Proof.AGateProof.
Theorem C06_async_gate_bounded : forall (g : AGate.cfg) (sched : list AGate.label),
  AGate.b (run AGate.step g AGate.init sched) <= AGate.cap g.
Proof. exact AGateProof.gate_bounded. Qed.
Print Assumptions C06_async_gate_bounded.
