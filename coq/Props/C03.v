(* C03 — stream pipelines equal their sequential meaning. Statements, each closed by a lemma of
   Proof/OpsProof.v or by a line or two instantiating one.
   [run_op o (xs, up)] is the model of consuming operator o over a source that yields xs and then
   ends normally ([End]) or raises ([Raise e]).  All statements are for every element list (any
   length, any elements: ints, None, exception objects, nested lists) and every parameter value. *)
From MpV Require Import Model.Ops Proof.OpsProof.
From Coq Require Import Permutation.

Theorem C03_map : forall f g xs up, total f g -> run_op (OMap f) (xs, up) = (map g xs, up).
Proof. exact map_spec. Qed.
Print Assumptions C03_map.

(* an exception raised by the function at the first failing element propagates at that position *)
Theorem C03_map_first_failure : forall f g pre x post e up,
  (forall y, In y pre -> f y = FOk (g y)) -> f x = FErr e ->
  run_op (OMap f) (pre ++ x :: post, up) = (map g pre, Raise e).
Proof. exact map_first_failure. Qed.
Print Assumptions C03_map_first_failure.

Theorem C03_filter : forall p b xs up,
  (forall x, p x = POk (b x)) -> run_op (OFilter p) (xs, up) = (filter b xs, up).
Proof. exact filter_spec. Qed.
Print Assumptions C03_filter.

Theorem C03_peek_buffer_identity : forall o xs up,
  o = OPeek \/ (exists n, o = OBuffer n) -> run_op o (xs, up) = (xs, up).
Proof. exact identity_spec. Qed.
Print Assumptions C03_peek_buffer_identity.

Theorem C03_parmap : forall f g rx re xs up,
  total f g -> run_op (OParmap f rx re) (xs, up) = (map (parmap_out g rx) xs, up).
Proof. exact parmap_spec. Qed.
Print Assumptions C03_parmap.

Theorem C03_parmap_return_exceptions : forall f rx xs up,
  run_op (OParmap f rx true) (xs, up) = (map (parmap_exc_out f rx) xs, up).
Proof. exact parmap_return_exceptions_spec. Qed.
Print Assumptions C03_parmap_return_exceptions.

Theorem C03_head : forall n xs, (1 <= n)%nat -> run_op (OHead n) (xs, End) = (firstn n xs, End).
Proof. exact head_spec. Qed.
Print Assumptions C03_head.

(* "keeps the first n elements and ignores all the rest": whatever follows the n-th element - more
   elements, the end of the source or a failure of the source - does not change the result *)
Theorem C03_head_ignores_the_rest : forall n xs rest up,
  (1 <= n)%nat -> length xs = n -> run_op (OHead n) (xs ++ rest, up) = (xs, End).
Proof. exact head_ignores_rest. Qed.
Print Assumptions C03_head_ignores_the_rest.

(* head never pulls more than n elements, however long the source is (n >= 1: the constructor
   rejects n = 0) *)
Theorem C03_head_pulls : forall n st, (1 <= n)%nat -> (pulls_of (OHead n) st <= n)%nat.
Proof. exact head_pulls. Qed.
Print Assumptions C03_head_pulls.

Theorem C03_tail : forall n xs, (1 <= n)%nat -> run_op (OTail n) (xs, End) = (lastn n xs, End).
Proof. intros n xs _. apply (tail_drive n [] xs 0). Qed.
Print Assumptions C03_tail.

(* batch computes [chunks n], which C03_batch_partition characterises without reference to its definition
   (that all batches but the last have exactly n elements is read off [chunks_aux], not proved) *)
Theorem C03_batch : forall n xs, run_op (OBatch n) (xs, End) = (chunks n xs, End).
Proof. exact batch_spec. Qed.
Print Assumptions C03_batch.

Theorem C03_batch_partition : forall n xs, (1 <= n)%nat ->
  flat_map unL (chunks n xs) = xs /\ Forall (is_batch n) (chunks n xs).
Proof. exact batch_flatten. Qed.
Print Assumptions C03_batch_partition.

Theorem C03_unbatch : forall ls, run_op OUnbatch (map L ls, End) = (concat ls, End).
Proof. exact unbatch_spec. Qed.
Print Assumptions C03_unbatch.

Theorem C03_unbatch_batch : forall n xs, (1 <= n)%nat ->
  run_pipeline [OBatch n; OUnbatch] (xs, End) = (xs, End).
Proof.
  intros n xs Hn. rewrite !pipeline_cons, batch_spec. now apply unbatch_of_chunks.
Qed.
Print Assumptions C03_unbatch_batch.

Theorem C03_accumulate : forall f g init xs,
  (forall a b, f a b = FOk (g a b)) ->
  run_op (OAccum f init) (xs, End) = (accumulate_spec g init xs, End).
Proof. exact accum_spec. Qed.
Print Assumptions C03_accumulate.

Theorem C03_groupby : forall key k keq xs,
  total key k -> run_op (OGroupby key keq) (xs, End) = (groupby_spec k keq xs, End).
Proof. intros key k keq xs Hk. now apply (group_drive key k keq None). Qed.
Print Assumptions C03_groupby.

Theorem C03_groupby_partition : forall k keq xs, flat_map group_members (groupby_spec k keq xs) = xs.
Proof. exact groupby_flatten. Qed.
Print Assumptions C03_groupby_partition.

(* shuffle yields a permutation of its input for every buffer size, every sequence of random draws
   and every final in-buffer shuffle that is itself a permutation *)
Theorem C03_shuffle_is_permutation : forall n draws perm xs,
  (1 <= n)%nat -> (forall l, Permutation (perm l) l) ->
  Permutation (fst (run_op (OShuffle n draws perm) (xs, End))) xs
  /\ snd (run_op (OShuffle n draws perm) (xs, End)) = End.
Proof. exact shuffle_is_permutation. Qed.
Print Assumptions C03_shuffle_is_permutation.

Theorem C03_pipeline_composes : forall a b st, run_pipeline (a ++ b) st = run_pipeline b (run_pipeline a st).
Proof. intros a b st. apply fold_left_app. Qed.
Print Assumptions C03_pipeline_composes.

(* incremental consumption: the first k outputs of a chain of inline one-to-one operators are
   determined by the first k source elements (so producing them needs no element beyond k; the
   look-ahead that buffer / parmap add on top is bounded by C08) *)
Theorem C03_one_to_one_chain_incremental : forall ops k xs,
  Forall inline_1to1 ops ->
  fst (run_pipeline ops (firstn k xs, End)) = firstn k (fst (run_pipeline ops (xs, End))).
Proof. intros ops k xs H. destruct (inline_chain_prefix ops H) as (F & HF & HFk). rewrite !HF. apply HFk. Qed.
Print Assumptions C03_one_to_one_chain_incremental.

(* Non-vacuity *)
Example C03_example :
  run_pipeline [OMap (fun x => match x with I z => FOk (I (z + 1)) | _ => FErr 1%Z end); OBatch 2; OHead 2]
               ([I 1; I 2; I 3; I 4; I 5]%Z, End)
  = ([L [I 2; I 3]; L [I 4; I 5]]%Z, End).
Proof. vm_compute. reflexivity. Qed.
