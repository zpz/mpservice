(* C16 — async variants give the same answers as their sync counterparts.
   Both fifo_stream (threads) and async_fifo_stream (cooperative tasks) are executions of the
   FifoStream machine: a cooperative execution is one particular family of schedules, and the
   theorems below hold for ALL schedules, hence for every completion order in either flavour.
   (The async code is tied to the model by differential outputs against [seq_run] under many
   completion orders, see harness/props/c16.py.) *)
From MpV Require Import Lib.Conc Model.FifoStream Proof.FifoProof Proof.FifoComplete Proof.SeqRun.

(* any two executions deliver the same outputs as far as both have got *)
Theorem C16_runs_agree_on_common_prefix : forall (g : cfg) (sched1 sched2 : list label),
  let s1 := run step g (init g) sched1 in
  let s2 := run step g (init g) sched2 in
  firstn (Nat.min (length (received s1)) (length (received s2))) (received s1) =
  firstn (Nat.min (length (received s1)) (length (received s2))) (received s2).
Proof. exact runs_agree. Qed.
Print Assumptions C16_runs_agree_on_common_prefix.

(* two executions that both complete deliver exactly the same outputs: values, exception objects,
   order and pairing with inputs *)
Theorem C16_completed_runs_equal : forall (g : cfg) (sched1 sched2 : list label),
  cp (run step g (init g) sched1) = CDone Completed ->
  cp (run step g (init g) sched2) = CDone Completed ->
  received (run step g (init g) sched1) = received (run step g (init g) sched2).
Proof. exact completed_runs_equal. Qed.
Print Assumptions C16_completed_runs_equal.

(* an element rejected by the preprocessor yields that element's own exception *)
Theorem C16_rejected_element_own_exception : forall (g : cfg) (sched : list label) i r p e,
  In (i, r) (received (run step g (init g) sched)) ->
  pre g = Some p -> p (val g i) = PreErr e -> r = Err e.
Proof.
  intros g sched i r p e Hin Hp He.
  rewrite (fifo_prefix g sched) in Hin. apply in_expected_prefix in Hin as ->.
  unfold outcome_of, pre_of. now rewrite Hp, He.
Qed.
Print Assumptions C16_rejected_element_own_exception.

(* the sequential reference used by the correspondence check delivers a prefix of the same list *)
Theorem C16_reference_is_in_order : forall g,
  fst (seq_run g) = expected_prefix g (length (fst (seq_run g))).
Proof. exact seq_run_prefix. Qed.
Print Assumptions C16_reference_is_in_order.
