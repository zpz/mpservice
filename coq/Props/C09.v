(* C09 — workers see well-formed batches; no request waits for a full batch.
   Proofs are in Proof/BatchProof.v and Proof/EagerBatcherProof.v; the last two theorems are proved here, one read
   off run_ok, one by evaluating the run.

   Two models carry the property:
   - Model/BatchWorker.v: collector thread, buffer and batch consumer of one batching worker, every
     interleaving, time abstracted (a timed get may time out at any moment);
   - Model/EagerBatcher.v: the timed policy of one consumer pulling from a queue in virtual time; the
     correspondence check runs Worker._get_input_batch against it (it is the same algorithm as
     EagerBatcher.__iter__ with the end marker put back instead of remembered). *)
From MpV Require Import Lib.Conc Model.BatchWorker Proof.BatchProof.
From MpV Require Model.EagerBatcher Proof.EagerBatcherProof.
From Coq Require Import Lia.

(* For every batch size b > 1, request sequence (genuine inputs, exception values, elements rejected by
   preprocess), set of batches on which call raises, and every schedule: each argument of call is a list
   of 1..b uids, all of them genuine inputs (uid j+1 names request j). *)
Theorem C09_batches_wellformed : forall g sched l,
  (1 < bsize g)%nat -> In l (calls (run step g (init g) sched)) ->
  (1 <= length l <= bsize g)%nat /\ forall u, In u l -> exists j, u = S j /\ nth_error (reqs g) j = Some KGood.
Proof. exact batches_wellformed. Qed.
Print Assumptions C09_batches_wellformed.

(* No accepted input is given to call twice (neither in two batches nor twice in one), in any reachable state. *)
Theorem C09_batches_disjoint : forall g sched,
  (1 < bsize g)%nat -> NoDup (concat (calls (run step g (init g) sched))).
Proof. exact batches_disjoint. Qed.
Print Assumptions C09_batches_disjoint.

(* When the worker has shut down (stop marker sent, collector and consumer returned), the batches are exactly
   the genuine inputs, each once, in arrival order: nothing was dropped between collector and consumer. *)
Theorem C09_accepted_exactly_once : forall g sched,
  locked_check g = true -> (1 < bsize g)%nat ->
  all_done g (run step g (init g) sched) = true ->
  concat (calls (run step g (init g) sched)) = good_uids g (length (reqs g)).
Proof. exact accepted_exactly_once. Qed.
Print Assumptions C09_accepted_exactly_once.

(* No interleaving wedges the worker: a reachable state in which neither the producer, nor the collector, nor
   the consumer (whose timed get may always time out) can move is the final state. With a fair scheduler
   this is "a lone request is always served". *)
Theorem C09_no_wedge : forall g sched,
  locked_check g = true -> (1 < bsize g)%nat ->
  stuck g (run step g (init g) sched) = true -> all_done g (run step g (init g) sched) = true.
Proof. exact no_wedge. Qed.
Print Assumptions C09_no_wedge.

(* buffer.put in the collector and the consumer's put-back never block on a full buffer. *)
Theorem C09_puts_never_block : forall g sched,
  locked_check g = true ->
  let s := run step g (init g) sched in
  (c_room (cp s) = true \/ b_putback (bp s) = true) -> is_full g s = false.
Proof. exact puts_never_block. Qed.
Print Assumptions C09_puts_never_block.

(* The end marker is the last thing a batching worker puts into its output queue, and it puts it once: whatever is in
   the queue after any schedule, nothing follows an end marker and nothing before it is one. (Before repair N1 the
   collector thread forwarded the marker as soon as it saw it, ahead of the results of the items still buffered: the next
   stage then stopped reading while this one was still writing.) *)
Theorem C09_end_marker_is_last : forall g sched a b,
  locked_check g = true -> qout (run step g (init g) sched) = a ++ OStop :: b -> b = [] /\ no_ostop a = true.
Proof. intros g sched a b _. apply marker_is_last. Qed.
Print Assumptions C09_end_marker_is_last.

(* The code before the repair (buffer.full() tested outside the mutex, single wait): a schedule after which
   collector and consumer wait for each other for ever while requests are still in the input queue. *)
Definition old_cfg := {| bsize := 2; reqs := repeat KGood 14; poison := []; locked_check := false |}.
Definition old_sched : list label :=
  repeat Env 15 ++ repeat C 400 ++ flat_map (fun _ => [B false; B false; B false; B true]) (seq 0 100) ++ [Csilent] ++ repeat C 5.
Theorem C09_unlocked_full_test_refuted :
  let s := run step old_cfg (init old_cfg) old_sched in
  stuck old_cfg s = true /\ all_done old_cfg s = false /\ cp s = CFullWait /\ bp s = BIdle /\ buf s = [] /\ length (qin s) = 3%nat.
Proof. vm_compute. repeat split; reflexivity. Qed.
Print Assumptions C09_unlocked_full_test_refuted.

(* The same schedule on the code as it is now ends in the final state. *)
Example C09_example_locked :
  let g := {| bsize := 2; reqs := repeat KGood 14; poison := []; locked_check := true |} in
  let s := run step g (init g) (old_sched ++ repeat C 400 ++ flat_map (fun _ => [B false; B false; B false; B true]) (seq 0 100) ++ repeat C 10) in
  all_done g s = true /\ concat (calls s) = seq 1 14 /\ (1 < bsize g)%nat.
Proof. vm_compute. repeat split; try reflexivity; try lia. Qed.

(* Non-vacuity with rejected elements and a failing batch. *)
Example C09_example_mixed :
  let g := {| bsize := 3; reqs := [KGood; KExc; KGood; KPre; KGood; KGood]; poison := [5%nat]; locked_check := true |} in
  let s := run step g (init g) (repeat Env 7 ++ repeat C 100 ++ flat_map (fun _ => [B false; B false; B false; B true]) (seq 0 30) ++ repeat C 10) in
  all_done g s = true /\ calls s = [[1; 3; 5]; [6]]%nat
  /\ qout s = [OErr 2; OErr 4; OErr 1; OErr 3; OErr 5; ORes 6; OStop]%nat.
Proof. vm_compute. repeat split; reflexivity. Qed.

Import Model.EagerBatcher Proof.EagerBatcherProof.
Open Scope Z_scope.

(* A batch is released no later than batch_wait_time after its first element was taken; a batch released short
   of batch_size was released exactly at that deadline or because the end marker arrived. *)
Theorem C09_partial_batch_released_at_deadline : forall g arr b,
  cfg_ok g -> In b (snd (run g arr)) ->
  etime b <= first_t b + Z.max (wait g) (last_t b - first_t b)
  /\ (why b = TimedOut -> etime b = first_t b + wait g)
  /\ ((length (items b) < EagerBatcher.bsize g)%nat -> why b = GotEnd \/ why b = TimedOut).
Proof.
  intros g arr b Hg Hin.
  destruct (run_ok g arr Hg) as (_ & H & _). rewrite Forall_forall in H. specialize (H b Hin).
  destruct H as (_ & Hshort & Hfull & Hend & Hto & _).
  split; [|split].
  - destruct (why b) eqn:E.
    + destruct (Hfull eq_refl) as [_ ->]. lia.
    + rewrite (Hend eq_refl). lia.
    + rewrite (Hto eq_refl). lia.
  - exact Hto.
  - intros Hl. destruct (Hshort Hl) as [->|[-> _]]; auto.
Qed.
Print Assumptions C09_partial_batch_released_at_deadline.

(* A lone request is served: one arrival, nothing else ever queued, the batch [z] is released exactly
   batch_wait_time after it was taken (at once when the wait is 0). *)
Theorem C09_lone_request_served : forall g t z,
  (1 < EagerBatcher.bsize g)%nat -> 0 <= wait g -> 0 <= t ->
  map (fun b => (items b, etime b)) (snd (run g [ {| atime := t; amsg := Some z |} ])) = [([z], t + wait g)].
Proof.
  intros g t z Hb Hw Ht. unfold run, run_from, step, idle_step, start. cbn [amsg atime].
  apply Nat.ltb_lt in Hb. rewrite Hb. cbn.
  replace (Z.max 0 t + Z.max 0 (Z.max 0 t + wait g - Z.max 0 t)) with (t + wait g) by lia. reflexivity.
Qed.
Print Assumptions C09_lone_request_served.
