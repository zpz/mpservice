(* C08 — streaming has bounded look-ahead and bounded concurrency. Statements; the examples are evaluated here. *)
From MpV Require Import Lib.Conc Model.Buffer Model.FifoStream Proof.BufferProof Proof.FifoProof.

(* fifo_stream / parmap: for every capacity, pool size, source (any length, any failures), worker
   outcome table, preprocessor, flags, consumer stop position, and every interleaving of feeder,
   consumer and pool workers: the number of elements pulled from the source and neither handed to
   the consumer nor discarded never exceeds capacity + 3. *)
Theorem C08_fifo_lookahead : forall (g : FifoStream.cfg) (sched : list FifoStream.label),
  FifoStream.ahead (run FifoStream.step g (FifoStream.init g) sched) <= FifoStream.cap g + 3.
Proof. exact fifo_lookahead. Qed.
Print Assumptions C08_fifo_lookahead.

(* Parmapper instantiates capacity = 2 * concurrency (the correspondence check runs Parmapper with
   the model's cap set to 2*conc): look-ahead <= 2*concurrency + 3. *)
Theorem C08_parmap_lookahead : forall (g : FifoStream.cfg) (sched : list FifoStream.label),
  FifoStream.cap g = 2 * FifoStream.conc g ->
  FifoStream.ahead (run FifoStream.step g (FifoStream.init g) sched) <= 2 * FifoStream.conc g + 3.
Proof. intros g sched H. rewrite <- H. apply fifo_lookahead. Qed.
Print Assumptions C08_parmap_lookahead.

(* at most [conc] invocations of the worker function are running, in every reachable state *)
Theorem C08_running_le_conc : forall (g : FifoStream.cfg) (sched : list FifoStream.label),
  FifoStream.running (run FifoStream.step g (FifoStream.init g) sched) <= FifoStream.conc g.
Proof. exact running_le_conc. Qed.
Print Assumptions C08_running_le_conc.

(* buffer(n): look-ahead <= n + 2 for every n, source, stop position and interleaving *)
Theorem C08_buffer_lookahead : forall (g : Buffer.cfg) (sched : list Buffer.label),
  Buffer.ahead (run Buffer.step g (Buffer.init g) sched) <= Buffer.maxsize g + 2.
Proof. exact buffer_lookahead. Qed.
Print Assumptions C08_buffer_lookahead.

(* Non-vacuity: the bound n + 2 is reached by a concrete schedule of Buffer(1). *)
Example C08_buffer_bound_tight :
  let g := {| Buffer.maxsize := 1; Buffer.src := [Buffer.SData 0; Buffer.SData 1; Buffer.SData 2; Buffer.SData 3];
              Buffer.stop_after := None; Buffer.drain_join := true |} in
  Buffer.ahead (run Buffer.step g (Buffer.init g)
                    [Buffer.C; Buffer.W; Buffer.W; Buffer.W; Buffer.C; Buffer.W; Buffer.W; Buffer.W;
                     Buffer.W; Buffer.W]) = 3.
Proof. vm_compute. reflexivity. Qed.

(* The hand-off queue itself (Model/Lane.v = the code of SingleLane, not the atomic FIFO assumed above): for every bound
   n > 0, every script of the writer and of the reader and every interleaving, the deque never holds more than n items -
   although put re-tests nothing after a wake-up. *)
From MpV Require Model.Lane Proof.LaneProof.
Theorem C08_singlelane_bound : forall (g : Lane.cfg) (sched : list Lane.label),
  0 < Lane.maxsize g -> length (Lane.q (run Lane.step g (Lane.init g) sched)) <= Lane.maxsize g.
Proof. exact LaneProof.lane_bound. Qed.
Print Assumptions C08_singlelane_bound.
(* What an outside observer of a real parmap (thread pool, process pool, event loop) sees - pulls, hand-overs, entries to and
   exits from the worker function - is checked against Model/ParSpec.v. A history the specification accepts respects both
   bounds after every event, for every capacity, concurrency and history length. *)
From MpV Require Model.ParSpec Proof.ParSpecProof.
Theorem C08_accepted_history_respects_bounds : forall (cap conc : nat) (evs : list ParSpec.ev) (sf : ParSpec.st),
  ParSpec.accept cap conc ParSpec.init 0 evs = inl sf ->
  forall k, exists sk, ParSpec.accept cap conc ParSpec.init 0 (firstn k evs) = inl sk /\
                       ParSpec.ahead sk <= cap + 3 /\ ParSpec.running sk <= conc.
Proof. exact ParSpecProof.accepted_respects_bounds. Qed.
Print Assumptions C08_accepted_history_respects_bounds.
(* ... and the specification refuses only a real excess: the pull that would make it capacity + 4 outstanding, the
   invocation that would make it concurrency + 1 running (or an impossible history). *)
Theorem C08_refusal_is_an_excess : forall (cap conc : nat) (s : ParSpec.st) (e : ParSpec.ev) (k : ParSpec.refusal),
  ParSpec.step cap conc s e = inr k ->
  match k with
  | ParSpec.LookAhead => e = ParSpec.Pull /\ cap + 3 <= ParSpec.ahead s
  | ParSpec.Concurrency => e = ParSpec.Enter /\ conc <= ParSpec.running s
  | ParSpec.Impossible => (e = ParSpec.Hand /\ ParSpec.pulled s <= ParSpec.handed s) \/ (e = ParSpec.Exit /\ ParSpec.running s = 0)
  end.
Proof. exact ParSpecProof.refusal_is_an_excess. Qed.
Print Assumptions C08_refusal_is_an_excess.
(* the detailed model of fifo_stream / Parmapper never leaves the specification *)
Theorem C08_fifo_model_within_spec : forall (g : FifoStream.cfg) (sched : list FifoStream.label),
  let s := run FifoStream.step g (FifoStream.init g) sched in
  FifoStream.ahead s <= FifoStream.cap g + 3 /\ FifoStream.running s <= FifoStream.conc g.
Proof. exact ParSpecProof.fifo_model_within_spec. Qed.
Print Assumptions C08_fifo_model_within_spec.
(* Non-vacuity: with concurrency 1 (capacity 2) a history reaching 5 outstanding elements is accepted, the sixth pull is not,
   and a second simultaneous invocation is not. *)
Example C08_spec_examples :
  (exists s, ParSpec.accept 2 1 ParSpec.init 0 [ParSpec.Pull; ParSpec.Enter; ParSpec.Pull; ParSpec.Pull; ParSpec.Pull; ParSpec.Pull;
                                               ParSpec.Exit; ParSpec.Hand; ParSpec.Pull] = inl s /\ ParSpec.peak_ahead s = 5) /\
  ParSpec.accept 2 1 ParSpec.init 0 (repeat ParSpec.Pull 6) = inr (5, ParSpec.LookAhead) /\
  ParSpec.accept 2 1 ParSpec.init 0 [ParSpec.Pull; ParSpec.Enter; ParSpec.Pull; ParSpec.Enter] = inr (3, ParSpec.Concurrency).
Proof. split; [eexists; split; vm_compute; reflexivity | split; vm_compute; reflexivity]. Qed.
