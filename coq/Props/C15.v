(* C15 — exceptions keep type, args and traceback text across processes. Statements only.
   Model: Model/RemoteExc.v. A journey = raised at the origin (any frames), wrapped in
   RemoteException, pickled/unpickled, then any number of further hops, each of which either
   forwards the received exception object or re-raises it (any frames) before wrapping it again. *)
From MpV Require Import Model.RemoteExc Proof.RemoteExcProof.

(* For every exception class and args, every traceback depth/content, every number of hops >= 1
   and every forward/re-raise pattern: the exception arrives with its class and args, is a remote
   exception, its remote traceback text contains the originally formatted traceback, and is
   identical to it when the exception was only forwarded. *)
Theorem C15_journey : forall (frames0 : text) (acts : list action) (p : Z) (e0 : exc),
  live_tb e0 = None -> cause_tb e0 = None ->
  exists e1, hop p (Reraise frames0) e0 = Some e1 /\
  exists ek, hops (p + 1) acts e1 = Some ek
    /\ cls ek = cls e0 /\ args ek = args e0 /\ is_remote ek = true
    /\ Infix (remote_text e1) (remote_text ek)
    /\ (Forall (fun a => a = Forward) acts -> remote_text ek = remote_text e1)
    /\ remote_text e1 = [tok_proc p; TOK_HDR] ++ frames0 ++ [tok_exc (cls e0)].
Proof. exact journey. Qed.
Print Assumptions C15_journey.

Theorem C15_wrap_needs_traceback : forall p e,
  live_tb e = None -> cause_tb e = None -> wrap p e = None.
Proof. exact wrap_needs_traceback. Qed.
Print Assumptions C15_wrap_needs_traceback.

(* the boolean sub-list test used by the correspondence driver is sound *)
Theorem C15_infixb_sound : forall x y, infixb x y = true -> Infix x y.
Proof. exact infixb_sound. Qed.
Print Assumptions C15_infixb_sound.

(* Not proved: exceptions nested in an EnsembleError are re-wrapped member by member
   (remote_exception.py:452-463); checked by the correspondence runs only. *)

Example C15_example :
  let e0 := {| cls := 7; args := [1; 2]; live_tb := None; cause_tb := None |} in
  option_map (fun e => (cls e, args e, is_remote e, remote_text e))
             (match hop 0 (Reraise [11; 12]) e0 with Some e1 => hops 1 [Forward; Reraise [21]] e1 | None => None end)
  = Some (7, [1; 2], true, [tok_proc 2; TOK_RTB; tok_proc 0; TOK_HDR; 11; 12; tok_exc 7; TOK_SEP; TOK_HDR; 21; tok_exc 7]).
Proof. vm_compute. reflexivity. Qed.
