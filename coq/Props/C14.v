(* C14 — proxy calls behave like direct calls on the hosted object.
   The proofs are in Proof/ProxyCallProof.v; the example history is evaluated here. *)
From MpV Require Import Model.ProxyCall Proof.ProxyCallProof.
Open Scope nat_scope.

(* For every history of requests to any hosted objects (from whichever proxies, threads and processes: a request
   carries only the object id) and every hosted list, dict, Value or Namespace: the answers to the calls on that
   object, and its final state, are exactly those of the same calls made directly on it, one after the other. State
   changes are therefore visible through every proxy of the object, and calls on other objects never interfere. *)
Theorem C14_proxy_equals_direct : forall reqs s a x,
  nth_error s a = Some x -> is_plain x = true ->
  answers_to a reqs (snd (run s reqs)) = snd (direct x (ops_to a reqs)) /\
  nth_error (fst (run s reqs)) a = Some (fst (direct x (ops_to a reqs))).
Proof. exact proxy_equals_direct. Qed.
Print Assumptions C14_proxy_equals_direct.

(* A call that raises - IndexError, ValueError, KeyError, AttributeError on a Namespace, an operation the object does
   not have - leaves the object as it was. *)
Theorem C14_error_leaves_state : forall x o c arg,
  snd (apply_plain x o) = RErr c arg -> fst (apply_plain x o) = x.
Proof. exact error_leaves_state. Qed.
Print Assumptions C14_error_leaves_state.

(* A request to one object leaves every other hosted object as it is. *)
Theorem C14_other_objects_untouched : forall s a o b,
  a <> b -> b < length s -> nth_error (fst (serve s a o)) b = nth_error s b.
Proof. exact serve_other. Qed.
Print Assumptions C14_other_objects_untouched.

(* A value returned through managed() comes back as a proxy to the hosted value, not a copy: what its owner sees
   of it afterwards is its state after whatever calls were made through that proxy. *)
Theorem C14_managed_value_is_live : forall s f made xs reqs,
  nth_error s f = Some (OFactory made) ->
  (forall p, In p reqs -> fst p <> f) ->
  let j := length s in
  let s1 := fst (serve s f (FMakeList xs)) in
  snd (serve s f (FMakeList xs)) = RProxy j /\
  exists l', fst (direct (OList xs) (ops_to j reqs)) = OList l' /\
             snd (serve (fst (run s1 reqs)) f (FPeek (length made))) = ROk (VList l').
Proof. exact managed_value_is_live. Qed.
Print Assumptions C14_managed_value_is_live.

Example C14_example :
  let s := [OList [3; 1]%Z; ODict []; OFactory []] in
  snd (run s [(0, LAppend 2%Z); (1, DSet 5 7); (0, LSort); (0, LPopAt 9); (1, DGet 6); (0, LGet (-1)); (2, FMakeList [4]%Z);
              (3, LAppend 8%Z); (2, FPeek 0); (1, DPopItem)])
  = [ROk VNone; ROk VNone; ROk VNone; RErr E_INDEX None; RErr E_KEY (Some 6%Z); ROk (VInt 3); RProxy 3; ROk VNone;
     ROk (VList [4; 8]%Z); ROk (VPairs [(5, 7)]%Z)].
Proof. vm_compute. reflexivity. Qed.
