(* C19 — EagerBatcher partitions its input and waits no longer than told.
   Statements, each read off [run_ok] (Proof/EagerBatcherProof.v), the clock ones through the readings
   of [chain] in Proof/EagerBatcherTime.v. *)
From MpV Require Import Model.EagerBatcher Proof.EagerBatcherProof Proof.EagerBatcherTime.
From Coq Require Import Sorted Lia.

(* For every batch size >= 1, wait >= 0 and every arrival sequence (any times, any length):
   the concatenation of the emitted batches is exactly the items before the end marker. *)
Theorem C19_eb_partition : forall g arr,
  cfg_ok g -> concat (map items (snd (run g arr))) = before_end arr.
Proof. intros g arr H. apply (run_ok g arr H). Qed.
Print Assumptions C19_eb_partition.

(* Every emitted batch has 1..batch_size items; a batch shorter than batch_size was emitted
   only because the end marker arrived, or because the queue head (if any) arrived later than
   wait after the batch's first item; emission happens at the justifying event: the clock
   of the last consumed message (full batch / end marker) or exactly first_t + wait. *)
Theorem C19_eb_batches_justified_and_prompt : forall g arr,
  cfg_ok g -> Forall (good_batch g) (snd (run g arr)).
Proof. intros g arr H. apply (run_ok g arr H). Qed.
Print Assumptions C19_eb_batches_justified_and_prompt.

(* The generator returns iff an end marker is among the arrivals (otherwise it is blocked in
   the untimed get, having already emitted every batch — see C19_eb_partition). *)
Theorem C19_eb_finishes_iff_end : forall g arr,
  cfg_ok g -> (fst (run g arr) = Finished <-> has_end arr = true).
Proof. intros g arr H. apply (run_ok g arr H). Qed.
Print Assumptions C19_eb_finishes_iff_end.

(* "Waits no longer than told", as an upper bound for every batch whatever made it go out: a
   batch is yielded at most [wait] after its first item left the queue - also when it is
   full or cut short by the end marker.  [first_t] is compared with the implementation by the
   correspondence check (the clock at which the virtual queue handed out the batch's first
   item), like [items] and [etime]. *)
Theorem C19_eb_waits_no_longer_than_told : forall g arr,
  cfg_ok g ->
  Forall (fun b => first_t b <= etime b <= first_t b + wait g) (snd (run g arr)).
Proof. intros g arr H. destruct (run_ok g arr H) as (_ & _ & _ & Hc). eapply chain_wait_bound, Hc. Qed.
Print Assumptions C19_eb_waits_no_longer_than_told.

(* The yields happen in clock order, and the first item of each batch is taken from the queue
   at or after the previous yield (no item is fetched ahead of the batch before it). *)
Theorem C19_eb_yields_in_clock_order : forall g arr,
  cfg_ok g ->
  Sorted Z.le (map etime (snd (run g arr))) /\ starts_after 0 (snd (run g arr)).
Proof.
  intros g arr H. destruct (run_ok g arr H) as (_ & _ & _ & Hc).
  split; [eapply chain_sorted, Hc | eapply chain_starts_after, Hc].
Qed.
Print Assumptions C19_eb_yields_in_clock_order.

(* Non-vacuity: a concrete run exercising full, timed-out and end-flushed batches. *)
Example C19_example :
  let g := {| bsize := 3; wait := 5 |} in
  let arr := [ {| atime := 1; amsg := Some 10 |}; {| atime := 2; amsg := Some 11 |};
               {| atime := 2; amsg := Some 12 |}; {| atime := 4; amsg := Some 13 |};
               {| atime := 20; amsg := Some 14 |}; {| atime := 21; amsg := None |} ] in
  cfg_ok g /\
  map (fun b => (items b, etime b, why b)) (snd (run g arr)) =
    [ ([10; 11; 12], 2, Full); ([13], 9, TimedOut); ([14], 21, GotEnd) ].
Proof. split; [unfold cfg_ok; cbn; lia | vm_compute; reflexivity]. Qed.
