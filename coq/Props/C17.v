(* C17 — IterableQueue delivers every item once and every consumer finishes. Statements, and the witness schedules
   of the two refutations. Model: Model/IterQueue.v (thread flavour). *)
From MpV Require Import Lib.Conc Model.IterQueue Proof.IterQueueProof.
From Coq Require Import Permutation.

(* For every number of suppliers and consumers, queue bound, number of rounds, item lists and every
   interleaving: the items received so far (by all consumers, in all rounds), the items still in the
   queue and the items swallowed by a failing renew() are together exactly the items put so far -
   nothing is lost, duplicated or invented at any moment. *)
Theorem C17_items_exactly_once : forall (g : cfg) (sched : list label),
  let s := run step g (init g) sched in
  Permutation (recv_total s ++ items_of (q s) ++ renew_ate s) (put_all s).
Proof. exact items_exactly_once. Qed.
Print Assumptions C17_items_exactly_once.

(* "exactly one end marker remains when all consumers have finished" is FALSE on the current tree:
   two consumers can both observe that all suppliers' tokens have been used and both add the extra
   marker (queue.py:265-276). Witness: 2 suppliers without items, 2 consumers. The stray marker then
   corrupts the next round (known finding C17-Q). *)
Theorem C17_one_marker_left_refuted :
  exists (g : cfg) (sched : list label),
    leftover_markers (run step g (init g) sched) = [2%nat].
Proof.
  exists {| nsup := 2; ncons := 2; qcap := 0; rounds := 2; items := fun _ _ => []; early := fun _ _ => [] |}.
  exists [Sup 0 false; Sup 0 false; Sup 0 false; Sup 1 false; Sup 1 false; Sup 1 false;
          Con 0; Con 0; Con 0; Con 0; Con 0;          (* consumer 0 moved a token, about to test used.full() *)
          Con 1; Con 1; Con 1; Con 1; Con 1;          (* consumer 1 moved the second token *)
          Con 1; Con 1;                               (* sees full, adds the extra marker *)
          Con 0; Con 0;                               (* also sees full, adds another one *)
          Ren].
  vm_compute. reflexivity.
Qed.
Print Assumptions C17_one_marker_left_refuted.

(* "no item or end marker leaking between rounds" is FALSE on the current tree when a supplier that has ended its round puts
   data of the next round before the round's consumer has finished (the put_end docstring allows it): the item sits in front of
   the extra end marker, and renew() takes the item where it expects the marker (RuntimeError 'expecting None, got 2'; the item is
   lost, the stale marker stays). Witness: one supplier, one consumer; put 1, put_end, put 2, consume, renew. Known finding C17-E. *)
Theorem C17_early_put_swallowed_by_renew_refuted :
  exists (g : cfg) (sched : list label),
    let s := run step g (init g) sched in
    renew_ate s = [2%Z] /\ rp s = RFail /\ q s = [None].
Proof.
  exists {| nsup := 1; ncons := 1; qcap := 0; rounds := 2;
            items := fun r _ => match r with O => [1%Z] | _ => [] end;
            early := fun r _ => match r with O => [2%Z] | _ => [] end |}.
  exists [Sup 0 false; Sup 0 false; Sup 0 false; Sup 0 false;       (* put 1; put_end: spare, applied, end marker *)
          Sup 0 false;                                              (* the supplier already puts 2 (next round) *)
          Con 0; Con 0; Con 0; Con 0; Con 0; Con 0; Con 0; Con 0; Con 0; Con 0;   (* the consumer gets 1, the marker, posts the extra one *)
          Ren; Ren].                                                (* renew(): used is full; takes 2 instead of the marker *)
  vm_compute. repeat split; reflexivity.
Qed.
Print Assumptions C17_early_put_swallowed_by_renew_refuted.

(* Not proved: every consumer finishes; every item put before put_end is received before the consumers of that round
   finish; stop() unblocks everybody. They rest on the scheduler exploration (every explored run is classified and
   compared with the sequential expectation). *)
