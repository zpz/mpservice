(* C10 — tee forks see identical streams and cannot wedge each other. Model: Model/Tee.v.
   Status on the current tree: the "no fork blocks forever" and "ends the way the source ended" clauses are FALSE
   (known findings C10-I, C10-J, C10-K; the witnesses below are schedules observed on the implementation under the
   deterministic scheduler). *)
From MpV Require Import Lib.Conc Model.Tee Proof.TeeProof Proof.TeePrefix Proof.TeeWindow.

Theorem C10_source_pulled_once : forall (g : cfg) (sched : list label),
  let s := run step g (init g) sched in
  length (boxes s) = pulled s /\
  exists consumed, src g = consumed ++ rest s /\ map bval (boxes s) = datas_all consumed.
Proof. exact source_pulled_once. Qed.
Print Assumptions C10_source_pulled_once.

(* For every number of forks, window size, source (data elements and failures) and every interleaving, including
   every expiry of the timed acquisition of the source lock: what any fork has handed to its consumer so far is a
   prefix of the data elements pulled from the source, in source order. No fork ever sees an element twice, out of
   order, or an element the others do not see at the same position. *)
Theorem C10_fork_prefix : forall (g : cfg) (sched : list label) (f : nat) (k : fork),
  let s := run step g (init g) sched in
  nth_error (forks s) f = Some k ->
  exists consumed, src g = consumed ++ rest s /\ recv k = firstn (length (recv k)) (datas_all consumed).
Proof. exact fork_prefix_of_source. Qed.
Print Assumptions C10_fork_prefix.

(* Bounded window: for every number of forks, window size, source (data elements and failures) and every interleaving,
   including every expiry of the timed acquisition of the source lock, and for every fork: the number of elements pulled
   from the source never exceeds what that fork has been handed so far by more than buffer_size + 2. *)
Theorem C10_tee_window : forall (g : cfg) (sched : list label) (f : nat) (k : fork),
  let s := run step g (init g) sched in
  nth_error (forks s) f = Some k -> pulled s <= length (recv k) + bufsize g + 2.
Proof. exact tee_window. Qed.
Print Assumptions C10_tee_window.

(* The bound is attained: buffer_size 2, fork 0 runs ahead, fork 1 has popped the first box but not yet received it. *)
Example C10_tee_window_tight :
  let g := {| nforks := 2; bufsize := 2; src := [SData 0; SData 1; SData 2; SData 3; SData 4; SData 5; SData 6] |} in
  let s := run step g (init g) (repeat (Fk 0 false) 60 ++ repeat (Fk 1 false) 6 ++ repeat (Fk 0 false) 60) in
  pulled s = 4 /\ option_map (fun k => length (recv k)) (nth_error (forks s) 1) = Some 0.
Proof. vm_compute. split; reflexivity. Qed.

(* C10-I: the first-element path takes the source lock unconditionally while a peer holds it blocked
   in buffer.put: both forks hang (2 forks, buffer_size 2, 3 elements). *)
Theorem C10_no_deadlock_refuted :
  exists (g : cfg) (sched : list label), deadlocked g (run step g (init g) sched) = true.
Proof.
  exists {| nforks := 2; bufsize := 2; src := [SData 0; SData 1; SData 2] |}.
  exists [Fk 1 false; Fk 1 false; Fk 1 false; Fk 0 false; Fk 1 false; Fk 1 false; Fk 1 false; Fk 1 false;
          Fk 1 false; Fk 1 false; Fk 1 false; Fk 1 false; Fk 1 false; Fk 1 false; Fk 1 false; Fk 1 false;
          Fk 1 false; Fk 1 false; Fk 1 false; Fk 1 false; Fk 1 false; Fk 1 false; Fk 1 false; Fk 1 false;
          Fk 1 false; Fk 1 false].
  vm_compute. reflexivity.
Qed.
Print Assumptions C10_no_deadlock_refuted.

(* C10-J and C10-K: when the source raises in the prefetch path the fork that pulled the failure
   ends with the exception (a) without releasing the source lock - its peer can never pull again -
   and (b) before delivering an element it had already pulled (element 2 here). *)
Theorem C10_source_failure_refuted :
  exists (g : cfg) (sched : list label),
    let s := run step g (init g) sched in
    ilock s = Some 1%nat
    /\ option_map pc (nth_error (forks s) 1) = Some (PDone (Raised 1))
    /\ option_map recv (nth_error (forks s) 1) = Some [0; 1]%Z
    /\ pulled s = 3%nat.
Proof.
  exists {| nforks := 2; bufsize := 2; src := [SData 0; SData 1; SData 2; SRaise 1; SData 3] |}.
  exists [Fk 0 false; Fk 0 false; Fk 0 false; Fk 0 false; Fk 0 false; Fk 1 false; Fk 0 false; Fk 0 false; Fk 1 false; Fk 1 false; Fk 1 false; Fk 1 false; Fk 1 false; Fk 1 false; Fk 1 false; Fk 1 false; Fk 1 false; Fk 1 false; Fk 1 false; Fk 1 false; Fk 0 false; Fk 1 false; Fk 1 false; Fk 1 false; Fk 1 false; Fk 1 false; Fk 1 false; Fk 1 false; Fk 1 false; Fk 0 false; Fk 1 false; Fk 0 false; Fk 0 false; Fk 0 false; Fk 1 false; Fk 1 false; Fk 1 false; Fk 1 false; Fk 0 false; Fk 1 false; Fk 1 false; Fk 1 false; Fk 1 false; Fk 1 false; Fk 1 false; Fk 1 false; Fk 0 false; Fk 0 false; Fk 0 false; Fk 0 false; Fk 0 false; Fk 0 false; Fk 0 false; Fk 0 false; Fk 0 false; Fk 0 false; Fk 0 true; Fk 0 false; Fk 0 true; Fk 0 false].
  vm_compute. repeat split; reflexivity.
Qed.
Print Assumptions C10_source_failure_refuted.
