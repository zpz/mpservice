(* C02 — Server answers every request with its own result (no cross-talk). Statements, and the witness
   schedule of the refutation. *)
From MpV Require Import Lib.Conc.
From MpV Require Model.Server Proof.ServerProof Model.Ensemble Proof.EnsembleProof.
From Coq Require Import List ZArith.
Import ListNotations.

(* Server layer (callers, ledger, gather, notifier) over an abstract servlet that answers pending
   requests in any order, with request ids unique while in flight: for every number of concurrent
   callers, capacity, servlet function and interleaving (including timeouts and cancellations of
   other requests), a request that is answered receives the servlet's result for its own input. *)
Theorem C02_server_answers_own_result :
  forall (g : Server.cfg) (sched : list Server.label) (i : nat) (r : Server.res),
  nth_error (Server.kp (run Server.step g (Server.init g) sched)) i = Some (Server.KDone (Server.Answered r)) ->
  r = ServerProof.result_of g i.
Proof. exact ServerProof.answers_are_own_results. Qed.
Print Assumptions C02_server_answers_own_result.

(* Ensemble (enqueue / dequeue threads and the catalog keyed by request id) over members that answer
   in any order: if the ids of the requests are distinct - which the server's counter guarantees since
   the repair recorded in known_findings.json - then for every number of members, fail_fast setting,
   member functions and interleaving, every emitted result for id u is built only from the members'
   results for u's own input. *)
Theorem C02_ensemble_no_cross_talk :
  forall (g : Ensemble.cfg), NoDup (map fst (Ensemble.reqs g)) ->
  forall (sched : list Ensemble.label),
  Forall (fun p => EnsembleProof.eres_ok g (fst p) (snd p))
         (Ensemble.qout (run Ensemble.step g (Ensemble.init g) sched)).
Proof. exact EnsembleProof.no_cross_talk. Qed.
Print Assumptions C02_ensemble_no_cross_talk.

(* The hypothesis is necessary: when an id is handed out again after its request was answered (what
   id(future) allowed on the pinned tree), a slow member's late result for the old request is filed
   under the new one. Request 2 (input 2) is answered [20; 11] - 11 is member 1's result for input 1. *)
Theorem C02_cross_talk_when_ids_are_reused :
  exists (g : Ensemble.cfg) (sched : list Ensemble.label),
    Ensemble.qout (run Ensemble.step g (Ensemble.init g) sched)
    = [(1%nat, Ensemble.EError); (1%nat, Ensemble.EList [Ensemble.Ok 20%Z; Ensemble.Ok 11%Z])].
Proof.
  exists {| Ensemble.nmem := 2; Ensemble.fail_fast := true; Ensemble.reqs := [(1%nat, 1%Z); (1%nat, 2%Z)];
            Ensemble.mfun := fun j x => if (Nat.eqb j 0 && Z.eqb x 1)%bool then Ensemble.Err 50%Z
                                        else Ensemble.Ok (x * 10 + Z.of_nat j)%Z |}.
  exists [Ensemble.Env; Ensemble.E; Ensemble.E; Ensemble.E; Ensemble.Mt 0; Ensemble.Mp 0; Ensemble.E;
          Ensemble.Mt 1; Ensemble.D false; Ensemble.D false; Ensemble.D false; Ensemble.D false; Ensemble.D false;
          Ensemble.Env; Ensemble.E; Ensemble.E; Ensemble.E; Ensemble.Mp 1; Ensemble.Mt 0; Ensemble.Mp 0;
          Ensemble.D false; Ensemble.D false; Ensemble.D false; Ensemble.D false; Ensemble.D false; Ensemble.D false;
          Ensemble.D false; Ensemble.D false; Ensemble.D false; Ensemble.D false; Ensemble.D false; Ensemble.D false].
  vm_compute. reflexivity.
Qed.
Print Assumptions C02_cross_talk_when_ids_are_reused.
