(* C20 — child-process log records all reach the parent, once and in order.
   Statements (proofs in Proof/LogChanProof.v), and the witness schedules of the refutations and the example. *)
From MpV Require Import Lib.Conc Model.LogChan Proof.LogChanProof.

(* For every list of record levels (any number of records), parent threshold, pipe capacity and every
   interleaving of the child, its queue feeder, the parent's result collector, its feeder and the logger
   thread - with or without the flush - what the parent has handled at any moment is the level-filtered image
   of an initial segment of the emitted records: in emission order, none twice, none invented. *)
Theorem C20_handled_in_order_once : forall g sched,
  let s := run step g (init g) sched in
  exists n, n <= nrec g /\ handled s = filter (passes g) (seq 0 n).
Proof. exact handled_in_order_once. Qed.
Print Assumptions C20_handled_in_order_once.

(* With the flush before the outcome is reported (the code as it is now): once the logger thread has stopped,
   every record emitted by the child - including the last ones before it returned, raised or exited - has been
   handled. *)
Theorem C20_all_records_handled : forall g sched,
  flush_first g = true ->
  let s := run step g (init g) sched in
  stopped s = true -> handled s = expected_handled g.
Proof. exact all_records_handled. Qed.
Print Assumptions C20_all_records_handled.

(* However many records and however small the pipe: a state in which nothing can move is the final one -
   the child has exited (join returns), the outcome has been delivered and the logger thread has stopped. *)
Theorem C20_no_wedge : forall g sched,
  flush_first g = true -> 0 < pipe_cap g ->
  stuck g (run step g (init g) sched) = true -> finished (run step g (init g) sched) = true.
Proof. exact no_wedge. Qed.
Print Assumptions C20_no_wedge.

(* The code before the repair (outcome reported without flushing the log queue first). *)
Definition old3 := {| levels := [20; 20; 20]; threshold := 10; pipe_cap := 10; flush_first := false |}.
Theorem C20_records_lost_without_flush_refuted :
  let s := run step old3 (init old3) ([CM; CM; CM; CM; CM; PC; PC; PF] ++ [CF; CF; CF] ++ [R; R; R; R] ++ [CM]) in
  stopped s = true /\ handled s = [] /\ expected_handled old3 = [0; 1; 2] /\ cm s = CExited.
Proof. vm_compute. repeat split; reflexivity. Qed.
Print Assumptions C20_records_lost_without_flush_refuted.

Definition old5 := {| levels := [20; 20; 20; 20; 20]; threshold := 10; pipe_cap := 2; flush_first := false |}.
Theorem C20_child_cannot_exit_without_flush_refuted :
  let s := run step old5 (init old5) (repeat CM 7 ++ [PC; PC; PF; R] ++ repeat CF 5 ++ repeat CM 3 ++ repeat R 3) in
  stuck old5 s = true /\ finished s = false /\ cm s = CExit /\ length (cbuf s) = 3 /\ handled s = [].
Proof. vm_compute. repeat split; reflexivity. Qed.
Print Assumptions C20_child_cannot_exit_without_flush_refuted.

(* Non-vacuity: a small pipe and a threshold that drops one record, with the flush: a fair schedule ends in the final
   state with everything else handled. *)
Example C20_example_flush :
  let g := {| levels := [20; 10; 30; 20; 40]; threshold := 20; pipe_cap := 2; flush_first := true |} in
  let s := run step g (init g) (rounds 40) in
  finished s = true /\ handled s = [0; 2; 3; 4] /\ reads s = [Rec 0; Rec 1; Rec 2; Rec 3; Rec 4; EndMark] /\ 0 < pipe_cap g.
Proof. vm_compute. repeat split; try reflexivity. repeat constructor. Qed.
