(* C12 — Process and Thread objects report how their target really ended. Statements only.
   Model: Model/ProcOutcome.v (after the repair recorded in known_findings.json: an unexpected
   signal resolves the future with an OSError instead of killing the collector thread). *)
From MpV Require Import Model.ProcOutcome Proof.ProcOutcomeProof.

(* for every way the target ends, every kill phase and every signal, the parent's future is
   resolved - which is what makes wait / as_completed return *)
Theorem C12_future_always_resolved : forall g, parent_future g <> Pending.
Proof. exact future_always_resolved. Qed.
Print Assumptions C12_future_always_resolved.

(* join / result / exception / wait agree with each other in every case *)
Theorem C12_accessors_agree : forall g,
  match parent_future g with
  | FResult v => acc_result (parent_future g) = Returns v /\ acc_join (parent_future g) = Returns PNone
                 /\ acc_exception (parent_future g) = Returns PNone /\ acc_wait (parent_future g) = Returns PNone
  | FError e => acc_result (parent_future g) = Raises e /\ acc_join (parent_future g) = Raises e
                /\ acc_exception (parent_future g) = Returns e /\ acc_wait (parent_future g) = Returns PNone
  | Pending => False
  end.
Proof. exact accessors_agree. Qed.
Print Assumptions C12_accessors_agree.

(* a returned value is returned, a raised exception is re-raised, sys.exit codes map as documented *)
Theorem C12_normal_endings : forall g,
  kill g = NoKill ->
  parent_future g =
    match how g with
    | Return v => FResult (PVal v)
    | RaiseExc e => FError (PExc e)
    | ExitNone => FResult PNone
    | ExitInt n => if (n =? 0)%Z then FResult PNone else FError (PSysExit n)
    | ExitOther => FError PSysExitOther
    | RaiseUnsendable | ReturnUnsendable => FError (POSErr (-1))
    | HardExit n => if (- n =? 15)%Z then FResult PNone else FError (POSErr (- n))
    | ReturnUnloadable e => FError (PExc e)
    end.
Proof. exact normal_endings. Qed.
Print Assumptions C12_normal_endings.

(* a child that ends by itself without having delivered an outcome the parent can use - it raised or returned something
   that cannot be pickled, returned something that cannot be unpickled, or called os._exit - is reported as an error
   through the future, never as a normal return of None *)
Theorem C12_silent_child_failure_is_error : forall g,
  kill g = NoKill -> sendable (how g) = false -> (forall n, how g = HardExit n -> n <> (-15)%Z) ->
  exists c, parent_future g = FError c.
Proof. exact silent_child_failure_is_error. Qed.
Print Assumptions C12_silent_child_failure_is_error.

(* death by an unexpected signal before the result was sent surfaces as an error; SIGTERM (terminate()) as result None *)
Theorem C12_unexpected_signal_is_error : forall g,
  kill g = KillBefore \/ kill g = KillDuring ->
  parent_future g = if (sig g =? 15)%Z then FResult PNone else FError (OS_ERROR (sig g)).
Proof. exact killed_before_result. Qed.
Print Assumptions C12_unexpected_signal_is_error.

Theorem C12_killed_after_sends_reports_result : forall g,
  kill g = KillAfter -> sendable (how g) = true ->
  parent_future g = parent_future {| how := how g; kill := NoKill; sig := sig g |}.
Proof. exact killed_after_sends. Qed.
Print Assumptions C12_killed_after_sends_reports_result.

Theorem C12_thread_matches_process : forall h,
  sendable h = true ->
  thread_future h = match parent_future {| how := h; kill := NoKill; sig := 15 |} with
                    | FResult v => FResult v | FError e => FError e | Pending => Pending end.
Proof. exact thread_matches_process. Qed.
Print Assumptions C12_thread_matches_process.
